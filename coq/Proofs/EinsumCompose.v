(* C05, specification side: the meaning of a cascade (Model/Einsum.v `denote_all`, the oracle every
   emitted cascade is executed against) IS the sequential composition of its Einsums, and the
   meaning of one Einsum depends on the environment only through the tensors it reads - so the
   prefix compiled (and computed) before Einsum i matters only through the intermediates i reads. *)
From Coq Require Import String List ZArith.
Require Import TV.Model.Einsum TV.Proofs.ListFacts.
Import ListNotations.
Local Open Scope Z_scope.
Local Open Scope string_scope.

Definition factor_reads (n : string) (f : factor) : bool :=
  match f with FTensor m _ => String.eqb m n | FVar _ => false end.
Definition term_reads (n : string) (t : term) : bool := existsb (factor_reads n) (t_factors t).
Definition einsum_reads (n : string) (e : einsum) : bool := existsb (term_reads n) (e_terms e).

Lemma factor_val_reads ts1 ts2 sc p f :
  (forall n, factor_reads n f = true -> tlookup n ts1 = tlookup n ts2) ->
  factor_val ts1 sc p f = factor_val ts2 sc p f.
Proof.
  destruct f as [m idx|v]; intros H; [|reflexivity]. cbn [factor_val].
  rewrite (H m); [reflexivity|]. cbn [factor_reads]. apply String.eqb_refl.
Qed.

Lemma term_val_reads ts1 ts2 sc p t :
  (forall n, term_reads n t = true -> tlookup n ts1 = tlookup n ts2) ->
  term_val ts1 sc p t = term_val ts2 sc p t.
Proof.
  intros H. unfold term_val. rewrite (map_ext_in _ (factor_val ts2 sc p)); [reflexivity|].
  intros f Hf. apply factor_val_reads. intros n Hn. apply H, existsb_exists. exists f. split; assumption.
Qed.

Theorem denote_reads_only e ts1 ts2 sc :
  (forall n, einsum_reads n e = true -> tlookup n ts1 = tlookup n ts2) ->
  denote e ts1 sc = denote e ts2 sc.
Proof.
  intros H. unfold denote. f_equal. apply fold_left_ext_in. intros d p _.
  rewrite (fold_left_ext_in _ (fun s t => s + term_val ts2 sc p t)); [reflexivity|].
  intros s t Ht. f_equal. apply term_val_reads. intros n Hn. apply H, existsb_exists. exists t. split; assumption.
Qed.

Corollary denote_frame e n d ts sc :
  einsum_reads n e = false -> denote e ((n, d) :: ts) sc = denote e ts sc.
Proof.
  intros H. apply denote_reads_only. intros m Hm. cbn [tlookup].
  destruct (String.eqb_spec m n) as [->|_]; [congruence|reflexivity].
Qed.

Theorem denote_all_app es1 es2 ts sc :
  denote_all (es1 ++ es2) ts sc = denote_all es2 (denote_all es1 ts sc) sc.
Proof. revert ts. induction es1 as [|e es1 IH]; intros ts; [reflexivity|]. cbn [app denote_all]. apply IH. Qed.

Theorem denote_all_last es e ts sc :
  tlookup (e_out e) (denote_all (es ++ [e]) ts sc) = denote e (denote_all es ts sc) sc.
Proof. rewrite denote_all_app. cbn [denote_all tlookup]. rewrite String.eqb_refl. reflexivity. Qed.

Theorem denote_all_keeps es e ts sc n :
  n <> e_out e -> tlookup n (denote_all (es ++ [e]) ts sc) = tlookup n (denote_all es ts sc).
Proof.
  intros H. rewrite denote_all_app. cbn [denote_all tlookup].
  destruct (String.eqb_spec n (e_out e)) as [E|_]; [contradiction|reflexivity].
Qed.

Theorem cascade_step_depends_on_reads es es' e ts ts' sc :
  (forall n, einsum_reads n e = true ->
             tlookup n (denote_all es ts sc) = tlookup n (denote_all es' ts' sc)) ->
  tlookup (e_out e) (denote_all (es ++ [e]) ts sc) = tlookup (e_out e) (denote_all (es' ++ [e]) ts' sc).
Proof. intros H. rewrite !denote_all_last. apply denote_reads_only. exact H. Qed.

(* non-vacuity: T[m] = A[m]; Z[m] = T[m] * B[m]  on concrete data *)
Example cascade_example :
  let eT := mkEinsum "T" [[(1, "m")]] [mkTerm [FTensor "A" [[(1, "m")]]] None] [("m", 3)] in
  let eZ := mkEinsum "Z" [[(1, "m")]] [mkTerm [FTensor "T" [[(1, "m")]]; FTensor "B" [[(1, "m")]]] None] [("m", 3)] in
  let ts := [("A", [([0], 2); ([2], 5)]); ("B", [([2], 3)])] in
  tlookup "Z" (denote_all [eT; eZ] ts []) = [([2], 15)] /\ einsum_reads "A" eZ = false.
Proof. vm_compute. split; reflexivity. Qed.
