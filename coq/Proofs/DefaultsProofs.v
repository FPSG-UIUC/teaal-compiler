(* Proofs about Model/Defaults.v: the default loop order, rank order and partitioning of property C19;
   `part_loop_expand` also serves C08 (the order in which the set of partitioned ranks is iterated). *)
From Coq Require Import String List Bool Lia Permutation ZArith.
Require Import TV.Model.Defaults TV.Proofs.ListFacts.
Import ListNotations.
Open Scope string_scope.
Open Scope list_scope.

Lemma smem_In x l : smem x l = true <-> In x l.
Proof. apply existsb_eqb_In. intro y. rewrite String.eqb_eq. split; congruence. Qed.

Lemma smem_false x l : smem x l = false <-> ~ In x l.
Proof. apply false_iff, smem_In. Qed.

Lemma smem_ext x s1 s2 : (forall y, In y s1 <-> In y s2) -> smem x s1 = smem x s2.
Proof. intro H. apply eq_true_iff_eq. rewrite !smem_In. apply H. Qed.

Lemma uniq_from_ext l : forall s1 s2, (forall y, In y s1 <-> In y s2) -> uniq_from s1 l = uniq_from s2 l.
Proof.
  induction l as [|x t IH]; intros s1 s2 H; simpl; [reflexivity|].
  rewrite (smem_ext x s1 s2 H). destruct (smem x s2).
  - apply IH, H.
  - f_equal. apply IH. intro y. simpl. rewrite H. tauto.
Qed.

Lemma uniq_from_In l : forall s x, In x (uniq_from s l) <-> In x l /\ ~ In x s.
Proof.
  induction l as [|a t IH]; intros s x; simpl; [tauto|].
  destruct (smem a s) eqn:E; [apply smem_In in E|apply smem_false in E]; simpl; rewrite IH; simpl.
  - split; [tauto|]. intros [[->|H1] H2]; tauto.
  - destruct (string_dec a x) as [->|Hne]; tauto.
Qed.

Lemma uniq_from_NoDup l : forall s, NoDup (uniq_from s l).
Proof.
  induction l as [|a t IH]; intros s; simpl; [constructor|].
  destruct (smem a s); [apply IH|]. constructor; [|apply IH].
  rewrite uniq_from_In. simpl. tauto.
Qed.

Lemma uniq_from_app l1 : forall s l2, uniq_from s (l1 ++ l2) = uniq_from s l1 ++ uniq_from (l1 ++ s) l2.
Proof.
  induction l1 as [|x t IH]; intros s l2; simpl; [reflexivity|].
  destruct (smem x s) eqn:E; simpl; rewrite IH.
  - f_equal. apply uniq_from_ext. intro y. apply smem_In in E. simpl. rewrite !in_app_iff. intuition congruence.
  - do 2 f_equal. apply uniq_from_ext. intro y. simpl. rewrite !in_app_iff. simpl. tauto.
Qed.

Lemma uniq_from_seen l : forall s, incl l s -> uniq_from s l = [].
Proof.
  induction l as [|a t IH]; intros s H; simpl; [reflexivity|]. apply incl_cons_inv in H as [Ha Ht].
  apply smem_In in Ha. rewrite Ha. apply IH, Ht.
Qed.

Lemma uniq_from_id l : forall s, NoDup l -> (forall x, In x l -> ~ In x s) -> uniq_from s l = l.
Proof.
  induction l as [|a t IH]; intros s Hnd H; simpl; [reflexivity|].
  inversion Hnd as [|? ? Hna Hnd']; subst.
  rewrite (proj2 (smem_false a s)) by (apply H; left; reflexivity). f_equal. apply IH; [exact Hnd'|].
  intros x Hx [->|Hs]; [contradiction|]. apply (H x); [right; exact Hx|exact Hs].
Qed.

Lemma uniq_from_absorb l : forall s s', incl s' s -> uniq_from s (uniq_from s' l) = uniq_from s l.
Proof.
  induction l as [|a t IH]; intros s s' Hi; simpl; [reflexivity|].
  destruct (smem a s') eqn:E'.
  - rewrite (proj2 (smem_In a s)) by (apply Hi, smem_In, E'). apply IH, Hi.
  - simpl. destruct (smem a s) eqn:E.
    + apply IH, incl_cons; [apply smem_In, E|exact Hi].
    + f_equal. apply IH, incl_cons; [left; reflexivity|apply incl_tl, Hi].
Qed.

Lemma dedup_In l x : In x (dedup l) <-> In x l.
Proof. unfold dedup. rewrite uniq_from_In. simpl. tauto. Qed.

Lemma dedup_NoDup l : NoDup (dedup l).
Proof. apply uniq_from_NoDup. Qed.

Lemma uniq_from_dedup s l : uniq_from s (dedup l) = uniq_from s l.
Proof. apply uniq_from_absorb, incl_nil_l. Qed.

Lemma dedup_app_NoDup a b : NoDup a -> dedup (a ++ b) = a ++ uniq_from a b.
Proof.
  intro H. unfold dedup. rewrite uniq_from_app, app_nil_r, uniq_from_id; [reflexivity|exact H|intros x _ []].
Qed.

Lemma dedup_app_incl a b : incl b a -> dedup (a ++ b) = dedup a.
Proof.
  intro H. unfold dedup. rewrite uniq_from_app, !app_nil_r, (uniq_from_seen b a H). apply app_nil_r.
Qed.

Lemma append_new_spec l : forall acc, append_new acc l = acc ++ uniq_from acc l.
Proof.
  unfold append_new. induction l as [|x t IH]; intros acc; simpl; [rewrite app_nil_r; reflexivity|].
  destruct (smem x acc) eqn:E.
  - apply IH.
  - rewrite IH. rewrite <- app_assoc. simpl. do 2 f_equal. apply uniq_from_ext.
    intro y. rewrite in_app_iff. simpl. tauto.
Qed.

Lemma fold_append_new {A : Type} (f : A -> list string) (ls : list A) : forall acc,
  fold_left (fun acc a => append_new acc (f a)) ls acc = append_new acc (flat_map f ls).
Proof.
  induction ls as [|a t IH]; intros acc; simpl; [reflexivity|].
  rewrite IH. symmetry. apply fold_left_app.
Qed.

(* Equation.__get_tensor_ranks and the chain of find_data sweeps over the terms are both stable partitions
   `filter p l ++ filter (negb o p) l` *)
Lemma coeffs_last_partition ts : coeffs_last_l ts = true ->
  filter is_just ts ++ filter (fun t => negb (is_just t)) ts = ts.
Proof.
  induction ts as [|[v|c v] t IH]; simpl; intro H; [reflexivity| |].
  - f_equal. apply IH, H.
  - destruct (filter_negb_all is_just t H) as [-> ->]. reflexivity.
Qed.

Lemma access_code_written a : coeffs_last a = true -> access_ranks_code a = access_ranks_written a.
Proof.
  unfold coeffs_last, access_ranks_code, access_ranks_written. intro H.
  rewrite (coeffs_last_partition _ H). reflexivity.
Qed.

Lemma access_code_In a x : In x (access_ranks_code a) <-> In x (access_ranks_written a).
Proof.
  unfold access_ranks_code, access_ranks_written. rewrite !in_map_iff.
  split; intros [t [Ht Hin]]; exists t; (split; [exact Ht|]); apply (in_filter_negb_app is_just); exact Hin.
Qed.

Lemma accesses_code_In l x : In x (flat_map access_ranks_code l) <-> In x (flat_map access_ranks_written l).
Proof.
  rewrite !in_flat_map. split; intros [a [Ha Hx]]; exists a; (split; [exact Ha|]); apply access_code_In; exact Hx.
Qed.

Lemma accesses_code_written l : forallb coeffs_last l = true ->
  flat_map access_ranks_code l = flat_map access_ranks_written l.
Proof.
  intro H. rewrite forallb_forall in H. apply flat_map_ext_in. intros a Ha. apply access_code_written, H, Ha.
Qed.

Lemma term_ranks_code_spec t : term_ranks_code t = dedup (flat_map access_ranks_code (term_accesses t)).
Proof. unfold term_ranks_code. rewrite fold_append_new. apply append_new_spec. Qed.

Lemma term_ranks_code_In t x : In x (term_ranks_code t) <-> In x (term_ranks_written t).
Proof. rewrite term_ranks_code_spec, dedup_In. apply accesses_code_In. Qed.

Lemma term_ranks_code_NoDup t : NoDup (term_ranks_code t).
Proof. rewrite term_ranks_code_spec. apply dedup_NoDup. Qed.

Lemma term_ranks_code_plain t : forallb coeffs_last (term_accesses t) = true ->
  term_ranks_code t = dedup (term_ranks_written t).
Proof. intro H. rewrite term_ranks_code_spec, (accesses_code_written _ H). reflexivity. Qed.

Lemma counter_eqb_perm a b : Permutation a b -> counter_eqb a b = true.
Proof.
  intro H. apply forallb_forall. intros x _. apply Nat.eqb_eq. apply Permutation_count_occ, H.
Qed.

Lemma subset_b_incl a b : subset_b a b = true <-> incl a b.
Proof.
  unfold subset_b. rewrite forallb_forall. split; intros H x Hx; apply smem_In, H, Hx.
Qed.

Lemma nodup_b_NoDup l : nodup_b l = true <-> NoDup l.
Proof.
  induction l as [|a t IH]; simpl; [split; [constructor|reflexivity]|].
  rewrite andb_true_iff, negb_true_iff, smem_false, IH, NoDup_cons_iff. reflexivity.
Qed.

(* what same_ranks_b decides; the first term only serves as the representative *)
Definition same_ranks (e : einsum) : Prop :=
  exists t rest, e_terms e = t :: rest /\
    forall t', In t' (e_terms e) -> forall r, In r (term_ranks_written t') <-> In r (term_ranks_written t).

Lemma same_ranks_b_spec e : same_ranks_b e = true <-> same_ranks e.
Proof.
  unfold same_ranks_b, same_ranks. destruct (e_terms e) as [|t rest].
  - split; [discriminate|]. intros [t [rest [H _]]]. discriminate.
  - rewrite forallb_forall. split.
    + intro H. exists t, rest. split; [reflexivity|]. intros t' [<-|Ht'] r; [reflexivity|].
      specialize (H t' Ht'). rewrite andb_true_iff, !subset_b_incl in H. split; apply H.
    + intros [t0 [rest0 [Heq H]]]. inversion Heq; subst. intros t' Ht'.
      rewrite andb_true_iff, !subset_b_incl. split; intros x Hx; apply (H t' (or_intror Ht') x); exact Hx.
Qed.

Lemma same_ranks_any e t t' : same_ranks e -> In t (e_terms e) -> In t' (e_terms e) ->
  forall r, In r (term_ranks_written t) <-> In r (term_ranks_written t').
Proof. intros [t0 [rest [_ H]]] Ht Ht' r. rewrite (H t Ht), (H t' Ht'). reflexivity. Qed.

Lemma rhs_ranks_In e t : same_ranks e -> In t (e_terms e) ->
  forall r, In r (rhs_ranks_written e) <-> In r (term_ranks_written t).
Proof.
  intros Hs Ht r. unfold rhs_ranks_written. rewrite in_flat_map. split.
  - intros [t' [Ht' Hr]]. apply (same_ranks_any e t' t Hs Ht' Ht), Hr.
  - intro Hr. exists t. split; assumption.
Qed.

Lemma canonical_first_term e t rest : e_terms e = t :: rest -> same_ranks e ->
  canonical_ranks e = dedup (access_ranks_written (e_oidx e) ++ term_ranks_written t).
Proof.
  intros Heq Hs. unfold canonical_ranks, rhs_ranks_written. rewrite Heq. cbn [flat_map].
  rewrite app_assoc. apply dedup_app_incl. intros x Hx. apply in_app_iff. right.
  apply in_flat_map in Hx as [t' [Ht' Hx]].
  apply (same_ranks_any e t' t Hs); [rewrite Heq; right; exact Ht'|rewrite Heq; left; reflexivity|exact Hx].
Qed.

Lemma code_terms_In e t : In t (code_terms e) <-> In t (e_terms e).
Proof. apply in_filter_negb_app. Qed.

Lemma code_terms_head e t rest : e_terms e = t :: rest -> head_ok e = true ->
  exists rest', code_terms e = t :: rest'.
Proof.
  unfold head_ok, code_terms. intros -> H. apply orb_true_iff in H as [H|H].
  - simpl. rewrite H. simpl. eexists; reflexivity.
  - destruct (filter_negb_all is_times _ H) as [-> ->]. eexists; reflexivity.
Qed.

(* the Counter comparison of __build_einsum_ranks never fails on an Einsum with same_ranks *)
Lemma counter_check_passes e t : same_ranks e -> In t (e_terms e) -> forall ts, incl ts (e_terms e) ->
  forallb (fun t' => counter_eqb (term_ranks_code t') (term_ranks_code t)) ts = true.
Proof.
  intros Hs Ht ts Hi. apply forallb_forall. intros t' Ht'. apply counter_eqb_perm.
  apply NoDup_Permutation; try apply term_ranks_code_NoDup.
  intro x. rewrite !term_ranks_code_In. apply (same_ranks_any e t' t Hs (Hi _ Ht') Ht).
Qed.

Lemma code_einsum_ranks_first e tc rest : same_ranks e -> code_terms e = tc :: rest ->
  code_einsum_ranks e = Some (access_ranks_code (e_oidx e) ++
    uniq_from (access_ranks_code (e_oidx e)) (flat_map access_ranks_code (term_accesses tc))).
Proof.
  intros Hs Hct. unfold code_einsum_ranks. rewrite Hct.
  assert (Hin : incl (tc :: rest) (e_terms e)) by (intros t Ht; apply code_terms_In; rewrite Hct; exact Ht).
  apply incl_cons_inv in Hin as [Htc Hrest]. rewrite (counter_check_passes e tc Hs Htc rest Hrest).
  rewrite append_new_spec, term_ranks_code_spec, uniq_from_dedup. reflexivity.
Qed.

Lemma code_einsum_ranks_canonical e : same_ranks_b e = true -> plain_first e = true ->
  code_einsum_ranks e = Some (canonical_ranks e).
Proof.
  intros Hs Hp. apply same_ranks_b_spec in Hs. pose proof Hs as [t [rest [Heq _]]].
  unfold plain_first in Hp. rewrite Heq, !andb_true_iff in Hp. destruct Hp as [[[Hhead Hout] Hnd] Hacc].
  destruct (code_terms_head e t rest Heq Hhead) as [rest' Hct].
  rewrite (code_einsum_ranks_first e t rest' Hs Hct), (canonical_first_term e t rest Heq Hs).
  rewrite (access_code_written _ Hout), (accesses_code_written _ Hacc).
  rewrite dedup_app_NoDup by apply nodup_b_NoDup, Hnd. reflexivity.
Qed.

Lemma code_einsum_ranks_perm e : same_ranks_b e = true -> NoDup (access_ranks_code (e_oidx e)) ->
  exists tail, code_einsum_ranks e = Some (access_ranks_code (e_oidx e) ++ tail) /\
               Permutation (access_ranks_code (e_oidx e) ++ tail) (canonical_ranks e).
Proof.
  intros Hs Hnd. apply same_ranks_b_spec in Hs. destruct (code_terms e) as [|tc restc] eqn:Hct.
  - destruct Hs as [t [rest [Heq _]]]. exfalso. apply (in_nil (a := t)). rewrite <- Hct.
    apply code_terms_In. rewrite Heq. left. reflexivity.
  - eexists. split; [exact (code_einsum_ranks_first e tc restc Hs Hct)|].
    rewrite <- (dedup_app_NoDup _ _ Hnd). apply NoDup_Permutation; try apply dedup_NoDup.
    assert (Htc : In tc (e_terms e)) by (apply code_terms_In; rewrite Hct; left; reflexivity).
    intro x. unfold canonical_ranks.
    rewrite !dedup_In, !in_app_iff, access_code_In, accesses_code_In, (rhs_ranks_In e tc Hs Htc). reflexivity.
Qed.

(* list.insert at a fixed index reverses: R0, R1, ..., Rn put in one by one at the place of r end up as
   [Rn; ...; R0] *)
Lemma fold_insert_0 names : forall l, fold_left (fun acc nm => insert_at 0 nm acc) names l = rev names ++ l.
Proof.
  induction names as [|nm t IH]; intros l; simpl; [reflexivity|]. rewrite IH, <- app_assoc. reflexivity.
Qed.

Lemma fold_insert_S i a names : forall l,
  fold_left (fun acc nm => insert_at (S i) nm acc) names (a :: l) =
  a :: fold_left (fun acc nm => insert_at i nm acc) names l.
Proof. induction names as [|nm t IH]; intros l; [reflexivity|apply IH]. Qed.

Lemma rev_names_ascending r n : rev (names_ascending r n) = level_names r n.
Proof. unfold names_ascending, level_names. rewrite map_rev. reflexivity. Qed.

Lemma update_ranks_head r n l : update_ranks r n (r :: l) = level_names r n ++ l.
Proof.
  unfold update_ranks. cbn [index_of remove_first]. rewrite String.eqb_refl.
  rewrite fold_insert_0, rev_names_ascending. reflexivity.
Qed.

Lemma update_ranks_skip r n a l : r <> a -> update_ranks r n (a :: l) = a :: update_ranks r n l.
Proof.
  intro H. apply String.eqb_neq in H. unfold update_ranks. cbn [index_of remove_first]. rewrite H.
  apply fold_insert_S.
Qed.

Lemma update_ranks_middle r n pre l : ~ In r pre ->
  update_ranks r n (pre ++ r :: l) = pre ++ level_names r n ++ l.
Proof.
  induction pre as [|a pre IH]; cbn [app]; intro H; [apply update_ranks_head|].
  rewrite update_ranks_skip, IH; [reflexivity| |]; contradict H; [right|left; symmetry]; exact H.
Qed.

Lemma lookup_In {A} r (l : list (string * A)) v : lookup r l = Some v -> In (r, v) l.
Proof.
  induction l as [|[k w] t IH]; simpl; [discriminate|].
  destruct (String.eqb_spec r k) as [->|_]; intro H; [left; congruence|right; apply IH, H].
Qed.

Lemma lookup_None {A} r (l : list (string * A)) : lookup r l = None <-> ~ In r (map fst l).
Proof.
  induction l as [|[k w] t IH]; simpl; [tauto|].
  destruct (String.eqb_spec r k) as [->|Hne]; [split; [discriminate|tauto]|].
  rewrite IH. split; [|tauto]. intros H [H1|H1]; [congruence|contradiction].
Qed.

Lemma lookup_NoDup_In {A} r (l : list (string * A)) v : NoDup (map fst l) -> In (r, v) l -> lookup r l = Some v.
Proof.
  induction l as [|[k w] t IH]; simpl; [tauto|]. intros Hnd H. apply NoDup_cons_iff in Hnd as [Hn Hnd].
  destruct (String.eqb_spec r k) as [->|Hne]; destruct H as [H|H]; try congruence.
  - destruct Hn. exact (in_map fst _ _ H).
  - apply IH; assumption.
Qed.

Lemma lookup_app {A} k (a b : list (string * A)) :
  lookup k (a ++ b) = match lookup k a with Some v => Some v | None => lookup k b end.
Proof.
  induction a as [|[k' v] t IH]; simpl; [reflexivity|]. destruct (String.eqb k k'); [reflexivity|apply IH].
Qed.

Lemma lookup_filter {A} (q : string -> bool) r (l : list (string * A)) :
  lookup r (filter (fun p => q (fst p)) l) = if q r then lookup r l else None.
Proof.
  induction l as [|[k v] t IH]; cbn [filter fst]; [destruct (q r); reflexivity|].
  destruct (String.eqb_spec r k) as [->|Hne].
  - destruct (q k) eqn:E; cbn [lookup]; [rewrite String.eqb_refl; reflexivity|exact IH].
  - apply String.eqb_neq in Hne. destruct (q k); cbn [lookup]; rewrite ?Hne; exact IH.
Qed.

Lemma lookup_perm {A} r (l l' : list (string * A)) : NoDup (map fst l) -> Permutation l l' -> lookup r l = lookup r l'.
Proof.
  intros Hk Hp. destruct (lookup r l') as [v|] eqn:E.
  - apply lookup_NoDup_In; [exact Hk|]. apply (Permutation_in _ (Permutation_sym Hp)), lookup_In, E.
  - apply lookup_None. apply lookup_None in E. contradict E. exact (Permutation_in _ (Permutation_map fst Hp) E).
Qed.

Definition fresh (ps : parts) : Prop :=
  forall p nm, In p ps -> In nm (level_names (fst p) (snd p)) -> ~ In nm (map fst ps).

Lemma fresh_b_spec ps : fresh_b ps = true <-> fresh ps.
Proof.
  unfold fresh_b, fresh. rewrite forallb_forall. split.
  - intros H p nm Hp Hnm. specialize (H p Hp). rewrite forallb_forall in H.
    apply smem_false, negb_true_iff, H, Hnm.
  - intros H p Hp. apply forallb_forall. intros nm Hnm. apply negb_true_iff, smem_false, (H p nm Hp Hnm).
Qed.

Lemma fresh_incl ps ps' : incl ps' ps -> fresh ps -> fresh ps'.
Proof. intros Hi H p nm Hp Hnm Hk. exact (H p nm (Hi p Hp) Hnm (incl_map fst Hi nm Hk)). Qed.

Lemma fresh_perm ps ps' : Permutation ps ps' -> fresh ps -> fresh ps'.
Proof. intro Hp. apply fresh_incl. intros p. apply Permutation_in, Permutation_sym, Hp. Qed.

Lemma expand_cons_split ps r n ranks : lookup r ps = Some n ->
  expand ps (r :: ranks) = level_names r n ++ expand ps ranks.
Proof. intro H. unfold expand. cbn [flat_map]. rewrite H. reflexivity. Qed.

Lemma expand_cons_plain ps r ranks : lookup r ps = None -> expand ps (r :: ranks) = r :: expand ps ranks.
Proof. intro H. unfold expand. cbn [flat_map]. rewrite H. reflexivity. Qed.

Lemma expand_app ps l1 l2 : expand ps (l1 ++ l2) = expand ps l1 ++ expand ps l2.
Proof. apply flat_map_app. Qed.

Lemma expand_ext ps1 ps2 ranks : (forall r, In r ranks -> lookup r ps1 = lookup r ps2) ->
  expand ps1 ranks = expand ps2 ranks.
Proof.
  intro H. unfold expand. apply flat_map_ext_in. intros r Hr. rewrite (H r Hr). reflexivity.
Qed.

Lemma expand_nil ranks : expand [] ranks = ranks.
Proof. induction ranks as [|a t IH]; [reflexivity|]. rewrite expand_cons_plain, IH; reflexivity. Qed.

Lemma expand_cons_notin r n ps ranks : ~ In r ranks -> expand ((r, n) :: ps) ranks = expand ps ranks.
Proof.
  intro H. apply expand_ext. intros x Hx. cbn [lookup].
  destruct (String.eqb_spec x r) as [->|_]; [contradiction|reflexivity].
Qed.

Lemma expand_In_inv ps ranks x : In x (expand ps ranks) ->
  (In x ranks /\ lookup x ps = None) \/ (exists r n, In r ranks /\ lookup r ps = Some n /\ In x (level_names r n)).
Proof.
  unfold expand. rewrite in_flat_map. intros [r [Hr Hx]]. destruct (lookup r ps) as [n|] eqn:E.
  - right. exists r, n. tauto.
  - left. destruct Hx as [<-|[]]. tauto.
Qed.

Lemma update_expand_step done r n ranks :
  NoDup ranks -> In r ranks -> lookup r done = None ->
  (forall r' n', lookup r' done = Some n' -> ~ In r (level_names r' n')) ->
  update_ranks r n (expand done ranks) = expand ((r, n) :: done) ranks.
Proof.
  intros Hnd Hin Hl Hfr. apply in_split in Hin as [pre [post ->]].
  apply NoDup_remove_2 in Hnd. rewrite in_app_iff in Hnd.
  rewrite !expand_app, (expand_cons_plain done r post Hl), (expand_cons_split ((r, n) :: done) r n post)
    by (cbn [lookup]; rewrite String.eqb_refl; reflexivity).
  rewrite !expand_cons_notin by tauto. apply update_ranks_middle.
  intro H. apply expand_In_inv in H as [[H _]|[r' [n' [_ [H1 H2]]]]]; [tauto|exact (Hfr r' n' H1 H2)].
Qed.

(* the parts are applied one after the other; the list reached depends on them only as a map *)
Lemma fold_update_expand ranks : NoDup ranks -> forall used, fresh used -> NoDup (map fst used) ->
  (forall p, In p used -> In (fst p) ranks) ->
  fold_left (fun acc p => update_ranks (fst p) (snd p) acc) used ranks = expand used ranks.
Proof.
  intros Hnd used. induction used as [|[r n] u IH] using rev_ind; intros Hfr Hk Hr.
  - symmetry. apply expand_nil.
  - rewrite map_app in Hk. cbn [map fst] in Hk. apply NoDup_remove in Hk as [Hk Hru]. rewrite app_nil_r in Hk, Hru.
    apply lookup_None in Hru.
    rewrite fold_left_app, IH;
      [|exact (fresh_incl _ _ (incl_appl _ (incl_refl u)) Hfr)|exact Hk|intros p Hp; apply Hr, in_or_app; left; exact Hp].
    cbn [fold_left fst snd]. rewrite update_expand_step.
    + apply expand_ext. intros x _. rewrite lookup_app. cbn [lookup].
      destruct (String.eqb_spec x r) as [->|_]; [rewrite Hru; reflexivity|destruct (lookup x u); reflexivity].
    + exact Hnd.
    + apply (Hr (r, n)), in_or_app. right. left. reflexivity.
    + exact Hru.
    + intros r' n' Hl Hin. apply lookup_In in Hl.
      apply (Hfr (r', n') r); [apply in_or_app; left; exact Hl|exact Hin|].
      rewrite map_app, in_app_iff. right. left. reflexivity.
Qed.

Lemma used_parts_In ps ranks p : In p (used_parts ps ranks) <-> In p ps /\ In (fst p) ranks.
Proof. unfold used_parts. rewrite filter_In, smem_In. reflexivity. Qed.

Lemma expand_used_parts ps ranks : expand (used_parts ps ranks) ranks = expand ps ranks.
Proof.
  apply expand_ext. intros r Hr. unfold used_parts.
  rewrite (lookup_filter (fun k => smem k ranks)), (proj2 (smem_In r ranks) Hr). reflexivity.
Qed.

(* the expansion is a fixed point: once every part is applied no level name is a partitioned rank *)
Lemma used_parts_expand ps ranks : fresh ps -> used_parts ps (expand ps ranks) = [].
Proof.
  intro Hfr. apply filter_none. intros p Hp. apply smem_false. intro Hin.
  apply expand_In_inv in Hin as [[_ Hl]|[r [n [_ [Hl Hin]]]]].
  - apply lookup_None in Hl. apply Hl, in_map, Hp.
  - apply lookup_In in Hl. exact (Hfr (r, n) (fst p) Hl Hin (in_map fst _ _ Hp)).
Qed.

(* a round that reaches a list without partitioned ranks is the last but one *)
Lemma part_loop_two_rounds f ps ranks :
  let ranks' := fold_left (fun acc p => update_ranks (fst p) (snd p) acc) (used_parts ps ranks) ranks in
  used_parts ps ranks' = [] -> part_loop (S (S f)) ps ranks = Some ranks'.
Proof.
  cbn [part_loop]. destruct (used_parts ps ranks); cbn zeta; [reflexivity|]. intros ->. reflexivity.
Qed.

Lemma part_loop_expand_self ps ranks fuel : NoDup (map fst ps) -> fresh ps -> NoDup ranks -> 2 <= fuel ->
  part_loop fuel ps ranks = Some (expand ps ranks).
Proof.
  intros Hk Hfr Hnd Hfuel. destruct fuel as [|[|f]]; try lia.
  assert (Hfold : fold_left (fun acc p => update_ranks (fst p) (snd p) acc) (used_parts ps ranks) ranks
                  = expand ps ranks).
  { rewrite <- expand_used_parts. apply fold_update_expand.
    - exact Hnd.
    - apply (fresh_incl ps); [apply incl_filter|exact Hfr].
    - apply NoDup_map_filter, Hk.
    - intros p Hp. apply used_parts_In in Hp. apply Hp. }
  rewrite part_loop_two_rounds; rewrite Hfold; [reflexivity|apply used_parts_expand, Hfr].
Qed.

(* ps' is ps in the order in which Python happens to iterate the set of partitioned ranks: whatever it is,
   the while loop ends after two rounds with every partitioned rank replaced in place by [Rn; ...; R0] *)
Lemma part_loop_expand ps ps' ranks fuel :
  NoDup (map fst ps) -> fresh_b ps = true -> NoDup ranks -> Permutation ps ps' -> 2 <= fuel ->
  part_loop fuel ps' ranks = Some (expand ps ranks).
Proof.
  intros Hk Hfr Hnd Hp Hfuel. apply fresh_b_spec in Hfr.
  rewrite (part_loop_expand_self ps' ranks fuel).
  - f_equal. apply expand_ext. intros r _. symmetry. apply lookup_perm; assumption.
  - eapply Permutation_NoDup; [apply Permutation_map, Hp|exact Hk].
  - eapply fresh_perm; eassumption.
  - exact Hnd.
  - exact Hfuel.
Qed.

Lemma default_loop_order_spec e ps ps' fuel :
  same_ranks_b e = true -> plain_first e = true ->
  NoDup (map fst ps) -> fresh_b ps = true -> Permutation ps ps' -> 2 <= fuel ->
  code_default_loop_order fuel e ps' = Some (canonical_order e ps).
Proof.
  intros Hs Hp Hk Hfr Hperm Hfuel. unfold code_default_loop_order, canonical_order.
  rewrite (code_einsum_ranks_canonical e Hs Hp).
  apply part_loop_expand; try assumption. apply dedup_NoDup.
Qed.

(* outside the class `plain_first`: still the in-place expansion of a permutation of the canonical ranks
   that begins with the output ranks *)
Lemma default_loop_order_perm e ps ps' fuel :
  same_ranks_b e = true -> NoDup (access_ranks_code (e_oidx e)) ->
  NoDup (map fst ps) -> fresh_b ps = true -> Permutation ps ps' -> 2 <= fuel ->
  exists l tail, Permutation l (canonical_ranks e) /\ l = access_ranks_code (e_oidx e) ++ tail /\
                 code_default_loop_order fuel e ps' = Some (expand ps l).
Proof.
  intros Hs Hnd Hk Hfr Hperm Hfuel. destruct (code_einsum_ranks_perm e Hs Hnd) as [tail [Hl Hpl]].
  eexists _, tail. split; [exact Hpl|]. split; [reflexivity|].
  unfold code_default_loop_order. rewrite Hl. apply part_loop_expand; try assumption.
  apply (Permutation_NoDup (Permutation_sym Hpl)), dedup_NoDup.
Qed.

Lemma canonical_order_no_parts e : canonical_order e [] = canonical_ranks e.
Proof. apply expand_nil. Qed.

(* the compiler's order (Equation.__build_einsum_ranks: product terms before take() terms, plain indices
   before coefficient indices) is NOT always the "order of first appearance" of the property text *)
Definition wit_take : einsum :=
  mkEinsum "Z" []
    [TTake [FTen "A" [[IJust "j"]; [IJust "m"]]; FTen "B" [[IJust "n"]]] 0;
     TTimes [FTen "C" [[IJust "n"]; [IJust "m"]; [IJust "j"]]]].
Definition wit_coeff : einsum :=
  mkEinsum "Z" []
    [TTimes [FTen "I" [[ITimes 2 "q"; IJust "s"]]; FTen "F" [[IJust "s"]]; FTen "G" [[IJust "q"]]]].

Lemma first_appearance_refuted_take :
  same_ranks_b wit_take = true /\ canonical_ranks wit_take = ["J"; "M"; "N"] /\
  code_einsum_ranks wit_take = Some ["N"; "M"; "J"].
Proof. vm_compute. repeat split. Qed.

Lemma first_appearance_refuted_coeff :
  same_ranks_b wit_coeff = true /\ canonical_ranks wit_coeff = ["Q"; "S"] /\
  code_einsum_ranks wit_coeff = Some ["S"; "Q"].
Proof. vm_compute. repeat split. Qed.

Lemma first_appearance_refuted :
  exists e, same_ranks_b e = true /\ NoDup (access_ranks_code (e_oidx e)) /\
            code_einsum_ranks e <> Some (canonical_ranks e).
Proof.
  destruct first_appearance_refuted_take as [Hs [Hcanon Hcode]].
  exists wit_take. split; [exact Hs|]. split; [constructor|]. rewrite Hcanon, Hcode. discriminate.
Qed.

Lemma resolve_omitted d : resolve_rank_orders d [] = declared_rank_orders d.
Proof.
  unfold resolve_rank_orders, declared_rank_orders. induction d as [|[k v] t IH]; simpl; [reflexivity|].
  f_equal. exact IH.
Qed.

(* writing the declared order of any set S of tensors into the rank-order section changes nothing *)
Lemma resolve_explicit_default d ro S : NoDup (map fst d) ->
  resolve_rank_orders d (ro ++ filter (fun x => smem (fst x) S) (declared_rank_orders d)) = resolve_rank_orders d ro.
Proof.
  intro Hk. unfold resolve_rank_orders, declared_rank_orders. apply map_ext_in. intros [k v] Hin. cbn [fst snd].
  rewrite lookup_app, (lookup_filter (fun x => smem x S)), (lookup_NoDup_In k d v Hk Hin).
  destruct (lookup k ro), (smem k S); reflexivity.
Qed.

Lemma einsum_parts_omitted {D} (m : part_section D) z : lookup z m = None -> einsum_parts m z = [].
Proof. unfold einsum_parts. intros ->. reflexivity. Qed.

(* `Z: {}`, `Z:` (null) and `Z: {K: [], M: []}` all mean "no partitioning" *)
Lemma einsum_parts_explicit_empty {D} (m : part_section D) z rs :
  einsum_parts ((z, map (fun r => (r, [])) rs) :: m) z = [].
Proof.
  unfold einsum_parts. simpl. rewrite String.eqb_refl. induction rs as [|r t IH]; simpl; [reflexivity|exact IH].
Qed.

Lemma einsum_parts_other {D} (m : part_section D) z z' x : z' <> z ->
  einsum_parts ((z, x) :: m) z' = einsum_parts m z'.
Proof.
  intro H. apply String.eqb_neq in H. unfold einsum_parts. cbn [lookup]. rewrite H. reflexivity.
Qed.

Lemma empty_partitioning : forall (D : Type) (m : part_section D) z rs, lookup z m = None ->
  einsum_parts m z = [] /\ einsum_parts ((z, map (fun r => (r, [])) rs) :: m) z = [] /\
  forall z' x, z' <> z -> einsum_parts ((z, x) :: m) z' = einsum_parts m z'.
Proof.
  intros D m z rs H. split; [exact (einsum_parts_omitted m z H)|].
  split; [exact (einsum_parts_explicit_empty m z rs)|]. intros z' x. exact (einsum_parts_other m z z' x).
Qed.

Lemma part_loop_no_parts fuel ranks : 1 <= fuel -> part_loop fuel [] ranks = Some ranks.
Proof. destruct fuel; [lia|reflexivity]. Qed.

(* Z[m, n] = A[k, m] * B[k, n] + take(C[n, k], D[m], 1), K split twice, M split once *)
Definition ex_gemm : einsum :=
  mkEinsum "Z" [[IJust "m"]; [IJust "n"]]
    [TTimes [FTen "A" [[IJust "k"]; [IJust "m"]]; FTen "B" [[IJust "k"]; [IJust "n"]]];
     TTake [FTen "C" [[IJust "n"]; [IJust "k"]]; FTen "D" [[IJust "m"]]] 1].
Definition ex_parts : parts := [("K", 2); ("M", 1)].

Example ex_gemm_hyps :
  same_ranks_b ex_gemm = true /\ plain_first ex_gemm = true /\ NoDup (map fst ex_parts) /\ fresh_b ex_parts = true.
Proof. repeat split; try (vm_compute; reflexivity). repeat constructor; simpl; intuition congruence. Qed.

Example ex_gemm_default :
  code_default_loop_order 2 ex_gemm [("M", 1); ("K", 2)] = Some ["M1"; "M0"; "N"; "K2"; "K1"; "K0"] /\
  canonical_order ex_gemm ex_parts = ["M1"; "M0"; "N"; "K2"; "K1"; "K0"].
Proof. vm_compute. split; reflexivity. Qed.

(* strided convolution: O[q] = I[2*q + s] * F[s]; coefficient first, but q is an output rank *)
Definition ex_conv : einsum :=
  mkEinsum "O" [[IJust "q"]] [TTimes [FTen "I" [[ITimes 2 "q"; IJust "s"]]; FTen "F" [[IJust "s"]]]].
Example ex_conv_outside_class_but_equal :
  plain_first ex_conv = false /\ code_einsum_ranks ex_conv = Some (canonical_ranks ex_conv).
Proof. vm_compute. split; reflexivity. Qed.

Example ex_rank_orders :
  resolve_rank_orders [("A", ["K"; "M"]); ("B", ["K"; "N"]); ("Z", ["M"; "N"])] [("B", ["N"; "K"])] =
  [("A", ["K"; "M"]); ("B", ["N"; "K"]); ("Z", ["M"; "N"])].
Proof. reflexivity. Qed.

(* Partitioning.get_all_parts() also lists the intermediates (K1I) of an occupancy stack; an entry whose
   root is not in the rank list is inert: part_loop_expand applies to the whole list, and
   expand_cons_notin drops the entry from the expansion *)
Example ex_intermediates_inert :
  NoDup (map fst [("K1I", 1); ("K", 2)]) /\ fresh_b [("K1I", 1); ("K", 2)] = true /\
  part_loop 2 [("K1I", 1); ("K", 2)] ["M"; "K"; "N"] = Some (expand [("K", 2)] ["M"; "K"; "N"]).
Proof. split; [repeat constructor; simpl; intuition congruence|]. split; vm_compute; reflexivity. Qed.
