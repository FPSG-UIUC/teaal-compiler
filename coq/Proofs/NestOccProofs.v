(* C03 at the level of loop nests: occupancy partitioning as a transformation of the nest state.  bounds_split
   (splitNonUniform) is a cut of a fiber by the classifier part_of, at the boundaries chunk_starts takes from the leader
   (splitEqual).  For ANY loop order well-formed for the split term the nest contributes, at every consistent point, the
   value of the term at the collapsed point and 0 elsewhere, also when the split is applied at a dynamic position (after
   outer levels, run_then_split), where a static validator of the rank structure gives the hypotheses; every original
   point with a non-zero value is represented exactly once.  Two-level stacks follow by composition.  bounds_split and
   equal_split ARE Rt.split_nonuniform and Rt.split_equal under the embedding of Nest tries into Rt tries. *)
From Coq Require Import ZArith List Bool Lia String Sorted.
Require TV.Model.Rt TV.Proofs.OccLaws TV.Proofs.RtLaws.
Require Import TV.Model.Nest TV.Proofs.NestProofs TV.Model.NestPart TV.Proofs.NestPartProofs TV.Model.NestOcc.
Require Import TV.Proofs.ListFacts.
Import ListNotations.
Open Scope Z_scope.

Lemma sorted_head_le a l x : StronglySorted Z.lt (a :: l) -> In x (a :: l) -> a <= x.
Proof.
  intros Hs [<-|Hx]; [lia|]. apply StronglySorted_inv in Hs as [_ Hs]. rewrite Forall_forall in Hs. specialize (Hs x Hx). lia.
Qed.

Lemma sorted_head_notin b bs : StronglySorted Z.lt (b :: bs) -> ~ In b bs.
Proof. intros Hs Hin. apply StronglySorted_inv in Hs as [_ Hs]. rewrite Forall_forall in Hs. specialize (Hs b Hin). lia. Qed.

Lemma part_of_OccLaws : NestOcc.part_of = OccLaws.part_of.
Proof. reflexivity. Qed.

Lemma part_of_in bs c b : part_of bs c = Some b -> In b bs.
Proof.
  revert b; induction bs as [|b0 bs IH]; intros b H; cbn [part_of] in H; [discriminate|].
  destruct (c <? b0); [discriminate|]. destruct (part_of bs c) as [b'|].
  - injection H as <-. right. apply IH. reflexivity.
  - injection H as <-. left. reflexivity.
Qed.

Lemma part_of_cons b bs c : StronglySorted Z.lt (b :: bs) ->
  part_of (b :: bs) c = if in_window b bs c then Some b else part_of bs c.
Proof.
  intros Hs. apply StronglySorted_inv in Hs as [_ Hs]. unfold in_window. cbn [part_of].
  destruct bs as [|b' bs]; cbn [part_of].
  - rewrite andb_true_r, Z.leb_antisym. destruct (c <? b); reflexivity.
  - apply Forall_inv in Hs.
    destruct (Z.ltb_spec c b), (Z.leb_spec b c), (Z.ltb_spec c b'); try lia; try reflexivity.
    destruct (part_of bs c); reflexivity.
Qed.

Lemma in_class_part_of_notin bs u c : ~ In u bs -> in_class (part_of bs) u c = false.
Proof.
  intros Hn. unfold in_class. destruct (part_of bs c) as [b|] eqn:E; [|reflexivity].
  apply part_of_in in E. apply Z.eqb_neq. intros ->. contradiction.
Qed.

Lemma in_class_part_of_cons b bs u c : StronglySorted Z.lt (b :: bs) ->
  in_class (part_of (b :: bs)) u c = if u =? b then in_window b bs c else in_class (part_of bs) u c.
Proof.
  intros Hs. unfold in_class at 1. rewrite (part_of_cons b bs c Hs), (Z.eqb_sym u b).
  destruct (in_window b bs c) eqn:Ew.
  - destruct (b =? u); [reflexivity|]. unfold in_class, in_window in *. destruct bs as [|b' bs]; [reflexivity|].
    apply andb_true_iff in Ew as [_ Ew]. cbn [part_of]. rewrite Ew. reflexivity.
  - destruct (Z.eqb_spec b u) as [<-|_]; [|reflexivity]. apply in_class_part_of_notin, sorted_head_notin, Hs.
Qed.

Lemma bounds_split_nil bs : bounds_split bs [] = [].
Proof. induction bs as [|b bs IH]; [reflexivity|exact IH]. Qed.

Lemma bounds_split_cut bs l : StronglySorted Z.lt bs -> cut_by (part_of bs) l (bounds_split bs l).
Proof.
  induction bs as [|b bs IH]; intros Hs u c; [reflexivity|].
  specialize (IH (proj1 (StronglySorted_inv Hs))). rewrite (in_class_part_of_cons b bs u c Hs).
  assert (E : lookup2 u c (bounds_split (b :: bs) l) =
              if u =? b then lookup c (filter (fun ct : coord * trie => in_window b bs (fst ct)) l)
              else lookup2 u c (bounds_split bs l)).
  { cbn [bounds_split]. destruct (filter (fun ct : coord * trie => in_window b bs (fst ct)) l); [|apply lookup2_cons].
    (* no partition at b: none further on either, the boundaries being distinct *)
    destruct (Z.eqb_spec u b) as [->|_]; [|reflexivity].
    rewrite IH, in_class_part_of_notin by exact (sorted_head_notin b bs Hs). reflexivity. }
  rewrite E, (lookup_filter_fst (in_window b bs)), IH. destruct (u =? b); reflexivity.
Qed.

Lemma den_bounds_split : forall bs l rs p r r1 r0,
  StronglySorted Z.lt bs -> ~ In r rs ->
  den (r1 :: r0 :: rs) (Node (bounds_split bs l)) p =
  if occ_consistent bs r1 r0 p then den (r :: rs) (Node l) (collapse r r0 p) else 0.
Proof. intros bs l rs p r r1 r0 Hs. apply (den_cut (part_of bs)), bounds_split_cut, Hs. Qed.

Lemma starts_aux_in n k l x : In x (starts_aux n k l) -> In x (keys l).
Proof.
  revert k; induction l as [|ct l IH]; intros k H; cbn [starts_aux] in H; [destruct H|].
  destruct k as [|k'].
  - destruct H as [<-|H]; [left; reflexivity|right; eapply IH; exact H].
  - right. eapply IH. exact H.
Qed.

Lemma chunk_starts_sorted n l : StronglySorted Z.lt (keys l) -> StronglySorted Z.lt (chunk_starts n l).
Proof.
  unfold chunk_starts. generalize 0%nat. induction l as [|ct l IH]; intros k Hs; cbn [starts_aux]; [constructor|].
  apply StronglySorted_inv in Hs as [Hs Hall]. destruct k as [|k']; [|apply IH; exact Hs].
  constructor; [apply IH; exact Hs|]. rewrite Forall_forall in *. intros x Hx. apply Hall, (starts_aux_in n (Nat.pred n)), Hx.
Qed.

Lemma chunk_starts_head n ct l : chunk_starts n (ct :: l) = fst ct :: starts_aux n (Nat.pred n) l.
Proof. reflexivity. Qed.

Lemma chunk_starts_covers n l c : StronglySorted Z.lt (keys l) -> In c (keys l) -> part_of (chunk_starts n l) c <> None.
Proof.
  intros Hs Hin H. apply OccLaws.part_of_none_iff in H.
  destruct l as [|ct l]; [destruct Hin|]. rewrite chunk_starts_head in H. apply (sorted_head_le _ _ c Hs) in Hin. lia.
Qed.

Lemma starts_aux_skipn n k l : starts_aux n k l = chunk_starts n (skipn k l).
Proof.
  revert k; induction l as [|ct l IH]; intros k; [destruct k; reflexivity|].
  destruct k as [|k']; [reflexivity|]. cbn [starts_aux skipn]. apply IH.
Qed.

Lemma chunk_starts_chunks n : (0 < n)%nat -> forall fuel l, (List.length l < fuel)%nat ->
  chunk_starts n l = map head_key (Rt.chunks fuel n l).
Proof.
  intros Hn. induction fuel as [|f IH]; intros l Hlen; [lia|]. destruct l as [|ct l]; [reflexivity|].
  destruct n as [|m]; [lia|]. cbn [Rt.chunks map firstn head_key skipn].
  rewrite <- IH by (rewrite skipn_length; cbn [List.length] in Hlen; lia).
  rewrite chunk_starts_head. f_equal. apply starts_aux_skipn.
Qed.

Lemma bounds_split_drop_below bs (pre l : list (coord * trie)) :
  (forall x b, In x pre -> In b bs -> fst x < b) -> bounds_split bs (pre ++ l) = bounds_split bs l.
Proof.
  induction bs as [|b bs IH]; intros H; [reflexivity|]. cbn [bounds_split].
  rewrite filter_app, (filter_none _ pre), IH; [reflexivity| |].
  - intros x b' Hx Hb'. apply H; [exact Hx|right; exact Hb'].
  - intros x Hx. unfold in_window. specialize (H x b Hx (or_introl eq_refl)). destruct (Z.leb_spec b (fst x)); [lia|reflexivity].
Qed.

Lemma bounds_split_concat chs : Forall (fun ch => ch <> []) chs -> StronglySorted Z.lt (keys (List.concat chs)) ->
  bounds_split (map head_key chs) (List.concat chs) = map (fun ch => (head_key ch, Node ch)) chs.
Proof.
  induction 1 as [|ch chs Hne Hall IH]; intros Hs; [reflexivity|]. cbn [List.concat map] in *.
  unfold keys in Hs. rewrite map_app in Hs. apply SS_app_iff in Hs as [Hch [Hrest Hlt]].
  destruct ch as [|ct ch]; [contradiction|]. cbn [head_key]. cbn [bounds_split].
  assert (Hsel : filter (fun x : coord * trie => in_window (fst ct) (map head_key chs) (fst x)) ((ct :: ch) ++ List.concat chs)
                 = ct :: ch).
  { rewrite filter_app, filter_all, filter_none; [apply app_nil_r| |]; intros x Hx; unfold in_window.
    - (* x lies in a later piece: not below the start of the next piece *)
      destruct chs as [|[|ct' ch'] chs]; [destruct Hx|apply Forall_inv in Hall; contradiction|].
      cbn [map head_key]. apply (in_map fst) in Hx. apply (sorted_head_le _ _ _ Hrest) in Hx.
      destruct (Z.ltb_spec (fst x) (fst ct')); [lia|]. apply andb_false_r.
    - (* x lies in this piece: from its start on, and below the start of the next piece *)
      apply (in_map fst) in Hx. pose proof (sorted_head_le _ _ _ Hch Hx) as Hle.
      destruct (Z.leb_spec (fst ct) (fst x)); [|lia]. destruct chs as [|[|ct' ch'] chs]; [reflexivity|apply Forall_inv in Hall; contradiction|].
      cbn [map head_key andb]. apply Z.ltb_lt, Hlt; [exact Hx|left; reflexivity]. }
  rewrite Hsel. f_equal. rewrite bounds_split_drop_below; [apply IH; exact Hrest|].
  intros x b Hx Hb. apply Hlt; [apply in_map; exact Hx|].
  apply in_map_iff in Hb as [ch' [<- Hch']]. rewrite Forall_forall in Hall. specialize (Hall ch' Hch').
  destruct ch' as [|ct' ch']; [contradiction|]. cbn [head_key]. apply in_map, in_concat. exists (ct' :: ch'). split; [exact Hch'|left; reflexivity].
Qed.

Lemma equal_split_chunks n : (0 < n)%nat -> forall fuel l,
  equal_split fuel n l = map (fun ch => (head_key ch, Node ch)) (Rt.chunks fuel n l).
Proof.
  intros Hn. induction fuel as [|f IH]; intros l; [reflexivity|].
  destruct l as [|ct l']; [reflexivity|]. cbn [equal_split Rt.chunks map]. rewrite IH.
  destruct n as [|m]; [lia|]. reflexivity.
Qed.

(* for the LEADER, cutting at its own chunk starts is splitEqual(n): consecutive chunks of n elements *)
Lemma leader_equal_split n : (0 < n)%nat -> forall fuel l, (List.length l < fuel)%nat -> StronglySorted Z.lt (keys l) ->
  bounds_split (chunk_starts n l) l = equal_split fuel n l.
Proof.
  intros Hn fuel l Hlen Hs. rewrite (equal_split_chunks n Hn), (chunk_starts_chunks n Hn fuel l Hlen).
  pose proof (OccLaws.chunks_sizes n Hn fuel l Hlen) as Hne. pose proof (OccLaws.chunks_concat n Hn fuel l Hlen) as Hc.
  set (chs := Rt.chunks fuel n l) in *. rewrite <- Hc in Hs |- *. apply bounds_split_concat; [|exact Hs].
  eapply Forall_impl; [|exact Hne]. intros ch [H _]. exact H.
Qed.

Theorem leader_bounds_split_chunks : forall n l, (0 < n)%nat -> StronglySorted Z.lt (keys l) ->
  bounds_split (chunk_starts n l) l = map (fun ch => (head_key ch, Node ch)) (Rt.chunks (S (List.length l)) n l).
Proof.
  intros n l Hn Hs. rewrite <- (equal_split_chunks n Hn). apply (leader_equal_split n Hn); [apply Nat.lt_succ_diag_r|exact Hs].
Qed.

Lemma den_occ_tstate r r1 r0 bs t p :
  StronglySorted Z.lt bs -> NoDup (rem t) -> (holds r t = true -> participates r t = true) ->
  den (rem (occ_tstate r r1 r0 bs t)) (cur (occ_tstate r r1 r0 bs t)) p =
  if participates r t then (if occ_consistent bs r1 r0 p then den (rem t) (cur t) (collapse r r0 p) else 0)
  else den (rem t) (cur t) (collapse r r0 p).
Proof.
  intros Hs Hnd Hhead. unfold occ_tstate, participates in *. destruct t as [rs cu]; cbn [rem cur] in *.
  destruct rs as [|x rest].
  - symmetry. apply den_upd_notin. intros [].
  - destruct (String.eqb_spec x r) as [->|Hne]; cbn [rem cur].
    + apply NoDup_cons_iff in Hnd as [Hnotin _].
      rewrite (den_bounds_split bs (children cu) rest p r r1 r0 Hs Hnotin).
      destruct cu as [v|l]; [|reflexivity]. destruct (occ_consistent bs r1 r0 p); reflexivity.
    + symmetry. apply den_upd_notin, index_of_none.
      unfold holds in Hhead. cbn [rem] in Hhead. destruct (index_of r (x :: rest)); [|reflexivity].
      specialize (Hhead eq_refl). discriminate.
Qed.

Lemma term_den_split_at r r1 r0 bs tm p : StronglySorted Z.lt bs -> term_ok r tm ->
  term_den (split_term_at r r1 r0 bs tm) p =
  if existsb (participates r) tm then (if occ_consistent bs r1 r0 p then term_den tm (collapse r r0 p) else 0)
  else term_den tm (collapse r r0 p).
Proof.
  intros Hs Hok. apply term_den_guard. intros t Ht. destruct (Hok t Ht). apply den_occ_tstate; assumption.
Qed.

Lemma body_den_split_at r r1 r0 bs tms p : StronglySorted Z.lt bs ->
  (forall tm, In tm tms -> term_ok r tm) -> (forall tm, In tm tms -> existsb (participates r) tm = true) ->
  body_den (map (split_term_at r r1 r0 bs) tms) p = if occ_consistent bs r1 r0 p then body_den tms (collapse r r0 p) else 0.
Proof.
  intros Hs Hok Hp. apply body_den_guard. intros tm Htm.
  pose proof (term_den_split_at r r1 r0 bs tm p Hs (Hok tm Htm)) as E. rewrite (Hp tm Htm) in E. exact E.
Qed.

(* any increasing boundaries (the followers' view: splitNonUniform at given boundaries), any sum of products in which
   every tensor holding r has it as its next rank, ANY loop order over r1, r0 and the other ranks *)
Theorem bounds_nest_sound : forall r r1 r0 bs tms L',
  StronglySorted Z.lt bs ->
  (forall tm, In tm tms -> term_ok r tm) -> (forall tm, In tm tms -> existsb (participates r) tm = true) ->
  wf L' (map (split_term_at r r1 r0 bs) tms) ->
  forall p, sum_at p (run L' (map (split_term_at r r1 r0 bs) tms)) =
            if occ_consistent bs r1 r0 p then body_den tms (collapse r r0 p) else 0.
Proof.
  intros r r1 r0 bs tms L' Hs Hok Hp Hwf p. rewrite (nest_sound L' _ Hwf p). apply body_den_split_at; assumption.
Qed.

Lemma leader_bounds_sorted r n k tm : leader_ok r k tm -> StronglySorted Z.lt (leader_bounds n k tm).
Proof.
  intros [ld [Hk [_ Hs]]]. unfold leader_bounds. rewrite (nth_error_nth tm k dummy_t Hk). apply chunk_starts_sorted. exact Hs.
Qed.

Lemma leader_participates r k tm : leader_ok r k tm -> existsb (participates r) tm = true.
Proof.
  intros [ld [Hk [Hp _]]]. apply existsb_exists. exists ld. split; [eapply nth_error_In; exact Hk|exact Hp].
Qed.

Lemma term_den_occ_split r r1 r0 n k tm p : term_ok r tm -> leader_ok r k tm ->
  term_den (occ_split r r1 r0 n k tm) p =
  if occ_consistent (leader_bounds n k tm) r1 r0 p then term_den tm (collapse r r0 p) else 0.
Proof.
  intros Hok Hld. unfold occ_split.
  rewrite (term_den_split_at r r1 r0 _ tm p (leader_bounds_sorted r n k tm Hld) Hok).
  rewrite (leader_participates r k tm Hld). reflexivity.
Qed.

Theorem occ_nest_sound : forall r r1 r0 n k tm L',
  term_ok r tm -> leader_ok r k tm ->
  wf L' [occ_split r r1 r0 n k tm] ->
  forall p, sum_at p (run L' [occ_split r r1 r0 n k tm]) =
            if occ_consistent (leader_bounds n k tm) r1 r0 p then term_den tm (collapse r r0 p) else 0.
Proof.
  intros r r1 r0 n k tm L' Hok Hld Hwf p. rewrite (nest_sound L' _ Hwf p), body_den_single.
  apply term_den_occ_split; assumption.
Qed.

(* the complement: an original point with a non-zero value has a partition (its r-coordinate is a coordinate of the
   leader's fiber, which is never below the first boundary) *)
Theorem occ_point_has_partition : forall r n k tm q, leader_ok r k tm ->
  term_den tm q <> 0 -> part_of (leader_bounds n k tm) (q r) <> None.
Proof.
  intros r n k tm q [ld [Hk [Hp Hs]]] Hnz. unfold leader_bounds. rewrite (nth_error_nth tm k dummy_t Hk).
  apply chunk_starts_covers; [exact Hs|].
  destruct (has_coord (q r) ld) eqn:Hc.
  - apply has_coord_tkeys in Hc. unfold tkeys in Hc. destruct (cur ld); [destruct Hc|exact Hc].
  - exfalso. apply Hnz, (term_den_zero tm q ld); [eapply nth_error_In; exact Hk|].
    exact (den_dead r (q r) ld q eq_refl Hp Hc).
Qed.

Lemma occ_consistent_upd bs r1 r0 (p : point) u : r1 <> r0 ->
  occ_consistent bs r1 r0 (upd p r1 u) = in_class (part_of bs) u (p r0).
Proof. intros Hne. unfold occ_consistent. rewrite upd_eq, upd_neq by congruence. reflexivity. Qed.

Theorem occ_consistent_unique : forall bs r1 r0 (p : point) u, r1 <> r0 ->
  occ_consistent bs r1 r0 (upd p r1 u) = true -> part_of bs (p r0) = Some u.
Proof.
  intros bs r1 r0 p u Hne H. rewrite occ_consistent_upd in H by exact Hne. unfold in_class in H.
  destruct (part_of bs (p r0)) as [b|]; [|discriminate]. apply Z.eqb_eq in H. subst b. reflexivity.
Qed.

Lemma run_k_sum : forall Lo k tms p,
  sum_at p (run_k Lo k tms) = if along Lo p tms then sum_at p (k (reach Lo p tms)) else 0.
Proof.
  induction Lo as [|r Lo IH]; intros k tms p; cbn [run_k along reach]; [reflexivity|].
  rewrite (sum_at_flat_map p r (fun c => run_k Lo k (map (step_term r c) tms))) by apply NoDup_nodup.
  destruct (in_dec Z.eq_dec (p r) (visited r tms)); cbn [andb]; [apply IH|reflexivity].
Qed.

Lemma run_k_is_nest Lo k tms : run_k Lo k tms = nest (fun tms => tms) (fun r c => map (step_term r c)) k Lo tms.
Proof.
  revert tms; induction Lo as [|r Lo IH]; intros tms; cbn [run_k nest]; [reflexivity|].
  apply flat_map_ext. intros c. rewrite IH. reflexivity.
Qed.

Lemma run_k_run L tms : run_k L (fun s => [([], fold_right (fun tm acc => term_leaf tm + acc) 0 s)]) tms = run L tms.
Proof. rewrite run_k_is_nest. reflexivity. Qed.

Lemma wf_outer_reach Lo Q tms p : wf_outer Lo Q tms -> Q (reach Lo p tms).
Proof.
  revert tms; induction Lo as [|r Lo IH]; intros tms H; cbn [reach]; [exact H|].
  destruct H as [_ H]. apply IH. apply H.
Qed.

Lemma wf_outer_impl Lo (Q Q' : list term -> Prop) tms : (forall s, Q s -> Q' s) -> wf_outer Lo Q tms -> wf_outer Lo Q' tms.
Proof.
  intros HQ. revert tms; induction Lo as [|r Lo IH]; intros tms H; cbn [wf_outer] in *; [apply HQ; exact H|].
  destruct H as [H1 H2]. split; [exact H1|]. intros c. apply IH. apply H2.
Qed.

Lemma wf_outer_wf L tms : wf L tms <-> wf_outer L (fun s => forall tm, In tm s -> forall t, In t tm -> rem t = []) tms.
Proof.
  revert tms; induction L as [|r L IH]; intros tms; cbn [wf wf_outer]; [tauto|].
  split; intros [H1 H2]; (split; [exact H1|]); intros c; apply IH; apply H2.
Qed.

Lemma body_den_reach Lo p q tms : (forall x, In x Lo -> q x = p x) -> body_den (reach Lo p tms) q = body_den tms q.
Proof.
  revert tms; induction Lo as [|r Lo IH]; intros tms H; cbn [reach]; [reflexivity|].
  rewrite IH by (intros x Hx; apply H; right; exact Hx).
  apply body_den_step. apply H. left. reflexivity.
Qed.

Lemma not_along_zero Lo Q p q tms : wf_outer Lo Q tms -> (forall x, In x Lo -> q x = p x) ->
  along Lo p tms = false -> body_den tms q = 0.
Proof.
  revert tms; induction Lo as [|r Lo IH]; intros tms Hwf H Ha; cbn [along] in Ha; [discriminate|].
  destruct Hwf as [Hpart Hwf]. assert (Hr : q r = p r) by (apply H; left; reflexivity).
  destruct (in_dec Z.eq_dec (p r) (visited r tms)) as [Hin|Hnin]; cbn [andb] in Ha.
  - rewrite <- (body_den_step r (p r) tms q Hr). apply (IH _ (Hwf (p r))); [|exact Ha].
    intros x Hx. apply H. right. exact Hx.
  - apply (body_den_all_dead r (p r)); [exact Hr|apply not_visited_dead; assumption].
Qed.

Theorem run_k_sound : forall Lo k (Q : list term -> Prop) (G : list term -> point -> Z) tms,
  wf_outer Lo Q tms -> (forall s p, Q s -> sum_at p (k s) = G s p) ->
  forall p, sum_at p (run_k Lo k tms) = if along Lo p tms then G (reach Lo p tms) p else 0.
Proof.
  intros Lo k Q G tms Hwf Hk p. rewrite run_k_sum. destruct (along Lo p tms); [|reflexivity].
  apply Hk. apply wf_outer_reach. exact Hwf.
Qed.

Lemma reach_single Lo p tm : reach Lo p [tm] = [reach_term Lo p tm].
Proof. revert tm; induction Lo as [|r Lo IH]; intros tm; cbn [reach reach_term map]; [reflexivity|apply IH]. Qed.

Lemma reach_term_ext Lo p q tm : (forall x, In x Lo -> p x = q x) -> reach_term Lo p tm = reach_term Lo q tm.
Proof.
  revert tm; induction Lo as [|r Lo IH]; intros tm H; cbn [reach_term]; [reflexivity|].
  rewrite (H r (or_introl eq_refl)). apply IH. intros x Hx. apply H. right. exact Hx.
Qed.

Lemma upd_outer (p : point) r c Lo : ~ In r Lo -> forall x, In x Lo -> upd p r c x = p x.
Proof. intros Hn x Hx. apply upd_neq. intros ->. contradiction. Qed.

Lemma collapse_outer r r0 p Lo : ~ In r Lo -> forall x, In x Lo -> collapse r r0 p x = p x.
Proof. apply upd_outer. Qed.

(* on the way to the reached state the value at q does not change (body_den_reach), and off the coordinates the outer
   levels visit it is 0 (not_along_zero) *)
Lemma run_k_term Lo (Q : list term -> Prop) (k : list term -> list contrib) (C : term -> bool) tm p q :
  wf_outer Lo Q [tm] -> (forall x, In x Lo -> q x = p x) ->
  (forall s, Q [s] -> sum_at p (k [s]) = if C s then term_den s q else 0) ->
  sum_at p (run_k Lo k [tm]) = if C (reach_term Lo p tm) then term_den tm q else 0.
Proof.
  intros Hwf Hq Hk. rewrite run_k_sum. destruct (along Lo p [tm]) eqn:Ea.
  - pose proof (wf_outer_reach Lo Q [tm] p Hwf) as HQ. pose proof (body_den_reach Lo p q [tm] Hq) as E.
    rewrite reach_single in *. rewrite !body_den_single in E. rewrite (Hk _ HQ), E. reflexivity.
  - pose proof (not_along_zero Lo Q p q [tm] Hwf Hq Ea) as E. rewrite body_den_single in E. rewrite E.
    destruct (C (reach_term Lo p tm)); reflexivity.
Qed.

(* occupancy partitioning of rank r AFTER the outer levels Lo: the boundaries are those of the leader's fiber in the state
   reached at the outer coordinates of p *)
Theorem occ_dyn_sound : forall Lo r r1 r0 n k Li tm,
  ~ In r Lo -> wf_outer Lo (occ_state_ok r r1 r0 n k Li) [tm] ->
  forall p, sum_at p (run_then_split Lo (occ_split r r1 r0 n k) Li [tm]) =
            if occ_consistent (leader_bounds n k (reach_term Lo p tm)) r1 r0 p then term_den tm (collapse r r0 p) else 0.
Proof.
  intros Lo r r1 r0 n k Li tm Hr Hwf p.
  apply (run_k_term Lo _ _ (fun s => occ_consistent (leader_bounds n k s) r1 r0 p) tm p _ Hwf (collapse_outer r r0 p Lo Hr)).
  intros s [Hok Hwfi]. destruct (Hok s (or_introl eq_refl)) as [Hto Hld]. apply occ_nest_sound; assumption.
Qed.

Lemma reach_term_upd Lo (p : point) r1 u tm : ~ In r1 Lo -> reach_term Lo (upd p r1 u) tm = reach_term Lo p tm.
Proof. intros Hr1. apply reach_term_ext, upd_outer, Hr1. Qed.

Lemma occ_dyn_sound_upd Lo r r1 r0 n k Li tm : ~ In r Lo -> ~ In r1 Lo -> r1 <> r0 ->
  wf_outer Lo (occ_state_ok r r1 r0 n k Li) [tm] ->
  forall p u, sum_at (upd p r1 u) (run_then_split Lo (occ_split r r1 r0 n k) Li [tm]) =
              if in_class (part_of (leader_bounds n k (reach_term Lo p tm))) u (p r0)
              then term_den tm (collapse r r0 (upd p r1 u)) else 0.
Proof.
  intros Hr Hr1 Hne Hwf p u.
  rewrite (occ_dyn_sound Lo r r1 r0 n k Li tm Hr Hwf), (reach_term_upd Lo p r1 u tm Hr1), occ_consistent_upd by exact Hne.
  reflexivity.
Qed.

Lemma term_den_collapse_upd_fresh r r0 r1 tm p u : r1 <> r0 -> (forall t, In t tm -> ~ In r1 (rem t)) ->
  term_den tm (collapse r r0 (upd p r1 u)) = term_den tm (collapse r r0 p).
Proof.
  intros Hne Hfresh. apply term_den_ext. intros t x Ht Hx.
  assert (Hx1 : x <> r1) by (intros ->; exact (Hfresh t Ht Hx)).
  unfold collapse. rewrite (upd_neq p r1 u r0) by congruence.
  destruct (String.eqb_spec x r) as [->|Hxr]; [rewrite !upd_eq; reflexivity|].
  rewrite !(upd_neq _ r) by exact Hxr. apply upd_neq. exact Hx1.
Qed.

Lemma term_den_lift r r1 r0 tm q u' : r1 <> r0 -> (forall t, In t tm -> ~ In r1 (rem t) /\ ~ In r0 (rem t)) ->
  term_den tm (collapse r r0 (upd (upd q r0 (q r)) r1 u')) = term_den tm q.
Proof.
  intros Hne Hfresh. rewrite (term_den_collapse_upd_fresh r r0 r1 tm _ u' Hne (fun t Ht => proj1 (Hfresh t Ht))).
  apply term_den_ext. intros t x Ht Hx. destruct (String.eqb_spec x r) as [->|Hxr].
  - rewrite collapse_eq. apply upd_eq.
  - rewrite collapse_neq by exact Hxr. apply upd_neq. intros ->. exact (proj2 (Hfresh t Ht) Hx).
Qed.

(* "no pair separated, none met twice": every original point q with a non-zero value is represented by EXACTLY ONE point
   of the partitioned space - lower coordinate q r, upper coordinate the partition u of q r at the boundaries of the state
   reached along Lo; the nest contributes the value of q there and nothing at any other upper coordinate *)
Theorem occ_dyn_represented_once : forall Lo r r1 r0 n k Li tm,
  ~ In r Lo -> ~ In r1 Lo -> ~ In r0 Lo -> r1 <> r0 ->
  (forall t, In t tm -> ~ In r1 (rem t) /\ ~ In r0 (rem t)) ->
  wf_outer Lo (occ_state_ok r r1 r0 n k Li) [tm] ->
  forall q, term_den tm q <> 0 ->
  exists u, part_of (leader_bounds n k (reach_term Lo q tm)) (q r) = Some u /\
    forall u', sum_at (upd (upd q r0 (q r)) r1 u') (run_then_split Lo (occ_split r r1 r0 n k) Li [tm]) =
               if Z.eqb u' u then term_den tm q else 0.
Proof.
  intros Lo r r1 r0 n k Li tm Hr Hr1 Hr0 Hne Hfresh Hwf q Hnz.
  pose proof (wf_outer_reach Lo _ [tm] q Hwf) as [Hok _]. pose proof (body_den_reach Lo q q [tm] (fun x _ => eq_refl)) as E.
  rewrite reach_single in *. rewrite !body_den_single in E. destruct (Hok _ (or_introl eq_refl)) as [_ Hld].
  destruct (part_of (leader_bounds n k (reach_term Lo q tm)) (q r)) as [u|] eqn:Eu.
  2:{ exfalso. apply (occ_point_has_partition r n k _ q Hld); [rewrite E; exact Hnz|exact Eu]. }
  exists u. split; [reflexivity|]. intros u'.
  rewrite (occ_dyn_sound_upd Lo r r1 r0 n k Li tm Hr Hr1 Hne Hwf), (reach_term_upd Lo q r0 (q r) tm Hr0), upd_eq.
  unfold in_class. rewrite Eu, (Z.eqb_sym u u').
  destruct (u' =? u); [|reflexivity]. apply term_den_lift; assumption.
Qed.

Theorem occ_represented_once : forall r r1 r0 n k tm L',
  term_ok r tm -> leader_ok r k tm -> r1 <> r0 ->
  (forall t, In t tm -> ~ In r1 (rem t) /\ ~ In r0 (rem t)) ->
  wf L' [occ_split r r1 r0 n k tm] ->
  forall q, term_den tm q <> 0 ->
  exists u, part_of (leader_bounds n k tm) (q r) = Some u /\
    forall u', sum_at (upd (upd q r0 (q r)) r1 u') (run L' [occ_split r r1 r0 n k tm]) =
               if Z.eqb u' u then term_den tm q else 0.
Proof.
  intros r r1 r0 n k tm L' Hok Hld Hne Hfresh Hwf.
  apply (occ_dyn_represented_once [] r r1 r0 n k L' tm); try assumption; try (intros []).
  split; [|exact Hwf]. intros tm' [<-|[]]. split; assumption.
Qed.

Lemma sortedb_iff l : sortedb l = true <-> StronglySorted Z.lt l.
Proof.
  induction l as [|a l IH]; cbn [sortedb]; [split; constructor|]. rewrite andb_true_iff, IH. split.
  - intros [H1 H2]. constructor; [exact H2|]. destruct l as [|b l]; [constructor|]. apply Z.ltb_lt in H1.
    constructor; [exact H1|]. eapply Forall_impl; [|exact (proj2 (StronglySorted_inv H2))]. cbn beta. intros; lia.
  - intros H. apply StronglySorted_inv in H as [Hs Hall]. split; [|exact Hs].
    destruct l; [reflexivity|]. apply Z.ltb_lt. exact (Forall_inv Hall).
Qed.

Lemma nodupb_sound l : nodupb l = true -> NoDup l.
Proof.
  induction l as [|x l IH]; intros H; [constructor|]. cbn [nodupb] in H. apply andb_true_iff in H as [H1 H2].
  constructor; [|apply IH; exact H2]. intros Hin. apply negb_true_iff in H1.
  pose proof (rmem_in x l Hin) as E. unfold rmem in E. congruence.
Qed.

Lemma rems_okb_sound r t : rems_okb r (rem t) = true -> NoDup (rem t) /\ (holds r t = true -> participates r t = true).
Proof.
  intros H. unfold rems_okb in H. apply andb_true_iff in H as [H1 H2]. split; [apply nodupb_sound; exact H1|].
  intros Hh. apply holds_iff in Hh. rewrite participates_heads.
  rewrite (rmem_in r (rem t) Hh) in H2. exact H2.
Qed.

Lemma term_ok_of_rems r tm : forallb (rems_okb r) (map rem tm) = true -> term_ok r tm.
Proof. intros H t Ht. rewrite forallb_forall in H. apply rems_okb_sound, H, in_map, Ht. Qed.

Lemma term_okb_sound r tm : term_okb r tm = true -> term_ok r tm.
Proof. intros H. apply term_ok_of_rems, forallb_map_Forall, Forall_forall, (forallb_forall _ tm), H. Qed.

Lemma leader_okb_sound r k tm : leader_okb r k tm = true -> leader_ok r k tm.
Proof.
  unfold leader_okb, leader_ok. destruct (nth_error tm k) as [ld|]; [|discriminate]. intros H.
  apply andb_true_iff in H as [H1 H2]. exists ld. split; [reflexivity|]. split; [exact H1|apply sortedb_iff; exact H2].
Qed.


Section Examples.
Local Open Scope string_scope.
(* non-vacuity: Z[m] = A[k,m] * B[k] * C[n], K occupancy-partitioned with leader A, chunks of 2; the leader's K fiber is
   {1,3,4,7,9} (boundaries 1,4,9), the follower B holds {0,3,5,9,12}: 0 lies below the first boundary and is dropped, 5
   lies in a partition where B is alone, 12 beyond the leader's last element; loop order K1, N, K0, M (N between the levels) *)
Definition ex_A : tstate := {| rem := ["K"; "M"];
  cur := Node [(1, Node [(0, Leaf 2)]); (3, Node [(1, Leaf 5)]); (4, Node [(0, Leaf 1); (1, Leaf 3)]); (7, Node [(1, Leaf 4)]); (9, Node [(0, Leaf 6)])] |}.
Definition ex_B : tstate := {| rem := ["K"]; cur := Node [(0, Leaf 7); (3, Leaf 11); (5, Leaf 13); (9, Leaf 2); (12, Leaf 3)] |}.
Definition ex_C : tstate := {| rem := ["N"]; cur := Node [(0, Leaf 1); (2, Leaf 10)] |}.
Definition ex_tm : term := [ex_A; ex_B; ex_C].
Definition ex_point (k1 k0 m n : Z) : point :=
  fun x => if String.eqb x "K1" then k1 else if String.eqb x "K0" then k0 else if String.eqb x "M" then m
           else if String.eqb x "N" then n else 0.

Example bounds_split_example :
  leader_bounds 2 0 ex_tm = [1; 4; 9] /\
  cur (nth 1 (occ_split "K" "K1" "K0" 2 0 ex_tm) dummy_t) =
    Node [(1, Node [(3, Leaf 11)]); (4, Node [(5, Leaf 13)]); (9, Node [(9, Leaf 2); (12, Leaf 3)])] /\
  bounds_split (chunk_starts 2 (children (cur ex_A))) (children (cur ex_A)) = equal_split 6 2 (children (cur ex_A)) /\
  map fst (equal_split 6 2 (children (cur ex_A))) = [1; 4; 9].
Proof. repeat split; vm_compute; reflexivity. Qed.

Example occ_nest_example :
  let L' := ["K1"; "N"; "K0"; "M"] in
  let tm' := occ_split "K" "K1" "K0" 2 0 ex_tm in
  term_ok "K" ex_tm /\ leader_ok "K" 0 ex_tm /\ wf L' [tm'] /\
  (forall t, In t ex_tm -> ~ In "K1" (rem t) /\ ~ In "K0" (rem t)) /\
  (* A[3,1] * B[3] * C[2] = 5 * 11 * 10 at the consistent point K1=1, K0=3 *)
  sum_at (ex_point 1 3 1 2) (run L' [tm']) = 550 /\ term_den ex_tm (collapse "K" "K0" (ex_point 1 3 1 2)) = 550 /\
  (* the same lower coordinate under another upper coordinate: nothing *)
  sum_at (ex_point 4 3 1 2) (run L' [tm']) = 0 /\
  (* A[9,0] * B[9] * C[0] = 6 * 2 * 1 *)
  sum_at (ex_point 9 9 0 0) (run L' [tm']) = 12 /\
  map fst (run L' [tm']) =
    [[("K1", 1); ("N", 0); ("K0", 3); ("M", 1)]; [("K1", 1); ("N", 2); ("K0", 3); ("M", 1)];
     [("K1", 9); ("N", 0); ("K0", 9); ("M", 0)]; [("K1", 9); ("N", 2); ("K0", 9); ("M", 0)]].
Proof.
  cbv zeta. split; [apply term_okb_sound; vm_compute; reflexivity|].
  split; [apply leader_okb_sound; vm_compute; reflexivity|].
  split; [apply swf_wf; vm_compute; reflexivity|].
  split.
  { intros t [<-|[<-|[<-|[]]]]; split; cbn; intros H; repeat (destruct H as [H|H]; [discriminate|]); exact H. }
  repeat split; vm_compute; reflexivity.
Qed.
End Examples.

Lemma tsortedb_node l : tsortedb (Node l) = sortedb (keys l) && forallb (fun ct => tsortedb (snd ct)) l.
Proof. reflexivity. Qed.

Lemma tsortedb_lookup c l t : tsortedb (Node l) = true -> lookup c l = Some t -> tsortedb t = true.
Proof.
  rewrite tsortedb_node. intros H. apply andb_true_iff in H as [_ H].
  induction l as [|[c' t'] l IH]; cbn [lookup]; [discriminate|].
  cbn [forallb snd] in H. apply andb_true_iff in H as [H1 H2].
  destruct (c =? c'); [intros E; injection E as <-; exact H1|apply IH; exact H2].
Qed.

Lemma tsortedb_default rs : tsortedb (default_of rs) = true.
Proof. destruct rs; reflexivity. Qed.

Lemma tsortedb_advance c t : tsortedb (cur t) = true -> tsortedb (cur (advance c t)) = true.
Proof.
  unfold advance. destruct t as [rs cu]; cbn [rem cur]. destruct rs as [|x rs']; [auto|].
  destruct cu as [v|l]; intros H; [apply tsortedb_default|].
  destruct (lookup c l) eqn:E; cbn [cur]; [eapply tsortedb_lookup; eauto|apply tsortedb_default].
Qed.

Lemma tsortedb_kill t : tsortedb (cur t) = true -> tsortedb (cur (kill t)) = true.
Proof.
  unfold kill. destruct t as [rs cu]; cbn [rem cur]. destruct rs as [|x rs']; [auto|]. intros _. apply tsortedb_default.
Qed.

Lemma tsortedb_stepf r c t : tsortedb (cur t) = true -> tsortedb (cur (stepf r c t)) = true.
Proof. intros H. unfold stepf. destruct (participates r t); [apply tsortedb_advance|]; exact H. Qed.

Lemma tsortedb_killf r t : tsortedb (cur t) = true -> tsortedb (cur (killf r t)) = true.
Proof. intros H. unfold killf. destruct (participates r t); [apply tsortedb_kill|]; exact H. Qed.

Lemma tsortedb_step_nth r c tm k ld' : (forall ld, nth_error tm k = Some ld -> tsortedb (cur ld) = true) ->
  nth_error (step_term r c tm) k = Some ld' -> tsortedb (cur ld') = true.
Proof.
  intros H E. destruct (term_alive r c tm) eqn:Hal.
  - rewrite (step_term_alive r c tm Hal), nth_error_map in E. destruct (nth_error tm k) as [ld|]; [|discriminate].
    injection E as <-. apply tsortedb_stepf, H. reflexivity.
  - rewrite (step_term_dead r c tm Hal), nth_error_map in E. destruct (nth_error tm k) as [ld|]; [|discriminate].
    injection E as <-. apply tsortedb_killf, H. reflexivity.
Qed.

Lemma tsortedb_children t : tsortedb t = true -> StronglySorted Z.lt (keys (children t)).
Proof.
  destruct t as [v|l]; [constructor|]. rewrite tsortedb_node. intros H. apply andb_true_iff in H as [H _].
  apply sortedb_iff. exact H.
Qed.

Lemma leader_ok_of_rems r k tm :
  match nth_error (map rem tm) k with Some rs => heads r rs | None => false end = true ->
  (forall ld, nth_error tm k = Some ld -> tsortedb (cur ld) = true) -> leader_ok r k tm.
Proof.
  rewrite nth_error_map. intros H Hs. destruct (nth_error tm k) as [ld|] eqn:E; [|discriminate].
  exists ld. split; [exact E|]. split; [exact H|]. apply tsortedb_children, Hs. reflexivity.
Qed.

Lemma wf_outer_cons x Lo Q tm :
  existsb (heads x) (map rem tm) = true -> (forall c, wf_outer Lo Q [step_term x c tm]) -> wf_outer (x :: Lo) Q [tm].
Proof.
  intros H Hc. split; [|exact Hc]. intros tm' [<-|[]]. apply heads_participant, H.
Qed.

Lemma rems_occ_split r r1 r0 n k tm : map rem (occ_split r r1 r0 n k tm) = map (occ_rems r r1 r0) (map rem tm).
Proof.
  unfold occ_split, split_term_at. rewrite !map_map. apply map_ext. intros t. unfold occ_tstate, occ_rems.
  destruct t as [rs cu]; cbn [rem cur]. destruct rs as [|x rest]; [reflexivity|]. destruct (String.eqb x r); reflexivity.
Qed.

Lemma occ_dyn_okb_notin Lo r r1 r0 k Li sh : occ_dyn_okb Lo r r1 r0 k Li sh = true -> ~ In r Lo.
Proof.
  revert sh; induction Lo as [|x Lo IH]; intros sh H; [intros []|]. cbn [occ_dyn_okb] in H.
  apply andb_true_iff in H as [H H3]. apply andb_true_iff in H as [H1 _]. apply negb_true_iff, String.eqb_neq in H1.
  intros [E|Hin]; [contradiction|]. exact (IH _ H3 Hin).
Qed.

(* the rank structure is accepted and the leader's trie is hereditarily sorted: the hypotheses of occ_dyn_sound hold for
   ALL tries of that rank structure *)
Theorem occ_dyn_okb_wf : forall Lo r r1 r0 n k Li tm,
  occ_dyn_okb Lo r r1 r0 k Li (map rem tm) = true ->
  (forall ld, nth_error tm k = Some ld -> tsortedb (cur ld) = true) ->
  wf_outer Lo (occ_state_ok r r1 r0 n k Li) [tm].
Proof.
  induction Lo as [|x Lo IH]; intros r r1 r0 n k Li tm H Hs; cbn [occ_dyn_okb] in H;
    apply andb_true_iff in H as [H H3]; apply andb_true_iff in H as [H1 H2].
  - split.
    + intros tm' [<-|[]]. split; [apply term_ok_of_rems; exact H1|apply leader_ok_of_rems; assumption].
    + apply swf_wf. cbn [map]. rewrite rems_occ_split. exact H3.
  - apply wf_outer_cons; [exact H2|]. intros c. apply IH; [rewrite rems_step_term; exact H3|].
    intros ld' E. exact (tsortedb_step_nth x c tm k ld' Hs E).
Qed.

(* certified validation of one product term with a dynamically placed occupancy split *)
Theorem occ_dyn_okb_sound : forall Lo r r1 r0 n k Li tm,
  occ_dyn_okb Lo r r1 r0 k Li (map rem tm) = true ->
  (forall ld, nth_error tm k = Some ld -> tsortedb (cur ld) = true) ->
  forall p, sum_at p (run_then_split Lo (occ_split r r1 r0 n k) Li [tm]) =
            if occ_consistent (leader_bounds n k (reach_term Lo p tm)) r1 r0 p then term_den tm (collapse r r0 p) else 0.
Proof.
  intros Lo r r1 r0 n k Li tm H Hs. apply occ_dyn_sound.
  - eapply occ_dyn_okb_notin. exact H.
  - apply occ_dyn_okb_wf; assumption.
Qed.

Section ExamplesDyn.
Local Open Scope string_scope.
(* Z[i] = A[i,k] * B[k], K occupancy-partitioned (leader A, chunks of 2) beneath I: the boundaries differ from one
   I-coordinate to the next - {1,4} in A[0,:] = {1,3,4}, {0,5} in A[2,:] = {0,3,5,8}; the follower B = {0,3,4,5,9} *)
Definition exd_A : tstate := {| rem := ["I"; "K"];
  cur := Node [(0, Node [(1, Leaf 2); (3, Leaf 5); (4, Leaf 1)]); (2, Node [(0, Leaf 3); (3, Leaf 4); (5, Leaf 6); (8, Leaf 1)])] |}.
Definition exd_B : tstate := {| rem := ["K"]; cur := Node [(0, Leaf 7); (3, Leaf 11); (4, Leaf 2); (5, Leaf 13); (9, Leaf 2)] |}.
Definition exd_tm : term := [exd_A; exd_B].
Definition exd_point (i k1 k0 : Z) : point :=
  fun x => if String.eqb x "I" then i else if String.eqb x "K1" then k1 else if String.eqb x "K0" then k0 else 0.

Example occ_dyn_example :
  let cs := run_then_split ["I"] (occ_split "K" "K1" "K0" 2 0) ["K1"; "K0"] [exd_tm] in
  occ_dyn_okb ["I"] "K" "K1" "K0" 0 ["K1"; "K0"] (map rem exd_tm) = true /\
  (forall ld, nth_error exd_tm 0 = Some ld -> tsortedb (cur ld) = true) /\
  leader_bounds 2 0 (reach_term ["I"] (exd_point 0 0 0) exd_tm) = [1; 4] /\
  leader_bounds 2 0 (reach_term ["I"] (exd_point 2 0 0) exd_tm) = [0; 5] /\
  cs = [([("I", 0); ("K1", 1); ("K0", 3)], 55); ([("I", 0); ("K1", 4); ("K0", 4)], 2);
        ([("I", 2); ("K1", 0); ("K0", 0)], 21); ([("I", 2); ("K1", 0); ("K0", 3)], 44); ([("I", 2); ("K1", 5); ("K0", 5)], 78)] /\
  (* K0 = 3 meets under K1 = 1 at I = 0 and under K1 = 0 at I = 2 *)
  sum_at (exd_point 0 1 3) cs = 55 /\ sum_at (exd_point 2 0 3) cs = 44 /\ sum_at (exd_point 2 1 3) cs = 0 /\
  term_den exd_tm (collapse "K" "K0" (exd_point 2 0 3)) = 44.
Proof.
  cbv zeta. split; [vm_compute; reflexivity|]. split.
  { intros ld E. injection E as <-. vm_compute. reflexivity. }
  repeat split; vm_compute; reflexivity.
Qed.
End ExamplesDyn.

Theorem occ_dyn_upper_unique : forall Lo r r1 r0 n k Li tm,
  ~ In r Lo -> ~ In r1 Lo -> r1 <> r0 -> wf_outer Lo (occ_state_ok r r1 r0 n k Li) [tm] ->
  forall p u, sum_at (upd p r1 u) (run_then_split Lo (occ_split r r1 r0 n k) Li [tm]) <> 0 ->
  part_of (leader_bounds n k (reach_term Lo p tm)) (p r0) = Some u.
Proof.
  intros Lo r r1 r0 n k Li tm Hr Hr1 Hne Hwf p u Hnz.
  rewrite (occ_dyn_sound Lo r r1 r0 n k Li tm Hr Hwf), (reach_term_upd Lo p r1 u tm Hr1) in Hnz.
  destruct (occ_consistent (leader_bounds n k (reach_term Lo p tm)) r1 r0 (upd p r1 u)) eqn:Ec; [|congruence].
  eapply occ_consistent_unique; eassumption.
Qed.

(* occupancy beneath a shape split: r is split by step s into (r2, rx) (statically, NestPart.part_tstate), then - after
   the outer levels Lo, r2 among them - rx is occupancy-split into (r1, r0) *)
Theorem occ_beneath_shape_sound : forall Lo r r2 rx s r1 r0 n k Li (tm : term),
  (forall t, In t tm -> NoDup (rem t)) -> existsb (holds r) tm = true ->
  let tm1 : term := map (part_tstate r r2 rx s) tm in
  ~ In rx Lo -> wf_outer Lo (occ_state_ok rx r1 r0 n k Li) [tm1] ->
  forall p, sum_at p (run_then_split Lo (occ_split rx r1 r0 n k) Li [tm1]) =
            if occ_consistent (leader_bounds n k (reach_term Lo p tm1)) r1 r0 p && consistent r2 rx s (collapse rx r0 p)
            then term_den tm (collapse r rx (collapse rx r0 p)) else 0.
Proof.
  intros Lo r r2 rx s r1 r0 n k Li tm Hnd Hh tm1 Hrx Hwf p.
  rewrite (occ_dyn_sound Lo rx r1 r0 n k Li tm1 Hrx Hwf p).
  destruct (occ_consistent (leader_bounds n k (reach_term Lo p tm1)) r1 r0 p); cbn [andb]; [|reflexivity].
  unfold tm1. rewrite (term_den_part r r2 rx s tm _ Hnd), Hh. reflexivity.
Qed.

Lemma collapse2_outer r rx r0 p Lo : ~ In r Lo -> ~ In rx Lo ->
  forall x, In x Lo -> collapse r rx (collapse rx r0 p) x = p x.
Proof. intros Hr Hrx x Hx. rewrite (collapse_outer r rx _ Lo Hr x Hx). apply (collapse_outer rx r0 p Lo Hrx x Hx). Qed.

(* occupancy beneath occupancy: after Lo1, r is occupancy-split (leader k2, chunks of n2) into (r2, rx); after the further
   levels Lo2 (r2 among them), rx is occupancy-split (leader k1, chunks of n1) into (r1, r0); then Li *)
Theorem occ_beneath_occ_sound : forall Lo1 r r2 rx n2 k2 Lo2 r1 r0 n1 k1 Li tm,
  ~ In r Lo1 -> ~ In rx Lo1 -> ~ In rx Lo2 ->
  wf_outer Lo1 (occ2_state_ok r r2 rx n2 k2 Lo2 r1 r0 n1 k1 Li) [tm] ->
  forall p,
  let tmA := reach_term Lo1 p tm in
  let tmB := occ_split r r2 rx n2 k2 tmA in
  sum_at p (run_split_split Lo1 (occ_split r r2 rx n2 k2) Lo2 (occ_split rx r1 r0 n1 k1) Li [tm]) =
  if occ_consistent (leader_bounds n1 k1 (reach_term Lo2 p tmB)) r1 r0 p
     && occ_consistent (leader_bounds n2 k2 tmA) r2 rx (collapse rx r0 p)
  then term_den tm (collapse r rx (collapse rx r0 p)) else 0.
Proof.
  intros Lo1 r r2 rx n2 k2 Lo2 r1 r0 n1 k1 Li tm Hr Hrx1 Hrx2 Hwf p.
  apply (run_k_term Lo1 _ _ (fun s => occ_consistent (leader_bounds n1 k1 (reach_term Lo2 p (occ_split r r2 rx n2 k2 s))) r1 r0 p
                                      && occ_consistent (leader_bounds n2 k2 s) r2 rx (collapse rx r0 p))
           tm p _ Hwf (collapse2_outer r rx r0 p Lo1 Hr Hrx1)).
  intros s [Hok Hwf2]. destruct (Hok s (or_introl eq_refl)) as [Hto Hld].
  cbn [map]. rewrite (occ_dyn_sound Lo2 rx r1 r0 n1 k1 Li _ Hrx2 (Hwf2 s (or_introl eq_refl)) p).
  destruct (occ_consistent (leader_bounds n1 k1 (reach_term Lo2 p (occ_split r r2 rx n2 k2 s))) r1 r0 p); cbn [andb]; [|reflexivity].
  apply term_den_occ_split; assumption.
Qed.

Lemma keys_bounds_split_in u bs l : In u (keys (bounds_split bs l)) -> In u bs.
Proof.
  induction bs as [|b bs IH]; cbn [bounds_split]; [intros []|].
  destruct (filter (fun ct : coord * trie => in_window b bs (fst ct)) l).
  - intros H. right. apply IH. exact H.
  - cbn [keys map fst]. intros [<-|H]; [left; reflexivity|right; apply IH; exact H].
Qed.

Lemma keys_bounds_split_sorted bs l : StronglySorted Z.lt bs -> StronglySorted Z.lt (keys (bounds_split bs l)).
Proof.
  induction 1 as [|b bs Hs IH Hall]; cbn [bounds_split]; [constructor|].
  destruct (filter (fun ct : coord * trie => in_window b bs (fst ct)) l); [exact IH|].
  cbn [keys map fst]. constructor; [exact IH|]. apply Forall_forall. intros u Hu.
  rewrite Forall_forall in Hall. apply Hall. eapply keys_bounds_split_in. exact Hu.
Qed.

Lemma keys_filter_sorted (f : coord * trie -> bool) l : StronglySorted Z.lt (keys l) -> StronglySorted Z.lt (keys (filter f l)).
Proof. unfold keys. rewrite !SS_map_iff. apply SS_filter. Qed.

Lemma tsortedb_filter (f : coord * trie -> bool) l : tsortedb (Node l) = true -> tsortedb (Node (filter f l)) = true.
Proof.
  rewrite !tsortedb_node, !andb_true_iff, !sortedb_iff, !forallb_forall. intros [H1 H2].
  split; [apply keys_filter_sorted; exact H1|]. intros ct Hct. apply filter_In in Hct. apply H2, Hct.
Qed.

Lemma tsortedb_bounds_split bs l : StronglySorted Z.lt bs -> tsortedb (Node l) = true ->
  tsortedb (Node (bounds_split bs l)) = true.
Proof.
  intros Hs Hl. rewrite tsortedb_node. apply andb_true_iff. split.
  - apply sortedb_iff, keys_bounds_split_sorted. exact Hs.
  - clear Hs. induction bs as [|b bs IH]; cbn [bounds_split]; [reflexivity|].
    destruct (filter (fun ct : coord * trie => in_window b bs (fst ct)) l) as [|x sel] eqn:E; [exact IH|].
    cbn [forallb snd]. rewrite IH, andb_true_r. rewrite <- E. apply tsortedb_filter. exact Hl.
Qed.

Lemma tsortedb_occ_tstate r r1 r0 bs t : StronglySorted Z.lt bs -> tsortedb (cur t) = true ->
  tsortedb (cur (occ_tstate r r1 r0 bs t)) = true.
Proof.
  intros Hs Ht. unfold occ_tstate. destruct t as [rs cu]; cbn [rem cur] in *. destruct rs as [|x rest]; [exact Ht|].
  destruct (String.eqb x r); cbn [cur]; [|exact Ht]. apply tsortedb_bounds_split; [exact Hs|].
  destruct cu as [v|l]; [reflexivity|exact Ht].
Qed.

Lemma occ2_dyn_okb_notin Lo1 r r2 rx k2 Lo2 r1 r0 k1 Li sh : occ2_dyn_okb Lo1 r r2 rx k2 Lo2 r1 r0 k1 Li sh = true ->
  ~ In r Lo1 /\ ~ In rx Lo1 /\ ~ In rx Lo2.
Proof.
  revert sh; induction Lo1 as [|x Lo1 IH]; intros sh H; cbn [occ2_dyn_okb] in H.
  - apply andb_true_iff in H as [_ H]. split; [intros []|]. split; [intros []|]. eapply occ_dyn_okb_notin. exact H.
  - apply andb_true_iff in H as [H H4]. apply andb_true_iff in H as [H _]. apply andb_true_iff in H as [H1 H2].
    apply negb_true_iff, String.eqb_neq in H1. apply negb_true_iff, String.eqb_neq in H2.
    destruct (IH _ H4) as [Ha [Hb Hc]]. split; [intros [E|Hin]; [contradiction|exact (Ha Hin)]|].
    split; [intros [E|Hin]; [contradiction|exact (Hb Hin)]|exact Hc].
Qed.

Theorem occ2_dyn_okb_wf : forall Lo1 r r2 rx n2 k2 Lo2 r1 r0 n1 k1 Li tm,
  occ2_dyn_okb Lo1 r r2 rx k2 Lo2 r1 r0 k1 Li (map rem tm) = true ->
  (forall ld, nth_error tm k2 = Some ld -> tsortedb (cur ld) = true) ->
  (forall ld, nth_error tm k1 = Some ld -> tsortedb (cur ld) = true) ->
  wf_outer Lo1 (occ2_state_ok r r2 rx n2 k2 Lo2 r1 r0 n1 k1 Li) [tm].
Proof.
  induction Lo1 as [|x Lo1 IH]; intros r r2 rx n2 k2 Lo2 r1 r0 n1 k1 Li tm H Hs2 Hs1; cbn [occ2_dyn_okb] in H;
    apply andb_true_iff in H as [H H3]; apply andb_true_iff in H as [H1 H2].
  - assert (Hld : leader_ok r k2 tm) by (apply leader_ok_of_rems; assumption).
    split; [intros tm' [<-|[]]; split; [apply term_ok_of_rems; exact H1|exact Hld]|].
    intros tm' [<-|[]]. apply occ_dyn_okb_wf; [rewrite rems_occ_split; exact H3|].
    (* the inner leader, cut at the outer leader's boundaries, is still hereditarily sorted *)
    intros ld' E. unfold occ_split, split_term_at in E. rewrite nth_error_map in E.
    destruct (nth_error tm k1) as [ld|] eqn:E1; cbn [option_map] in E; [|discriminate]. injection E as <-.
    apply tsortedb_occ_tstate; [eapply leader_bounds_sorted; exact Hld|apply Hs1; reflexivity].
  - apply wf_outer_cons; [exact H2|]. intros c.
    apply IH; [rewrite rems_step_term; exact H3| |]; intros ld' E;
      [exact (tsortedb_step_nth x c tm k2 ld' Hs2 E)|exact (tsortedb_step_nth x c tm k1 ld' Hs1 E)].
Qed.

Theorem occ2_dyn_okb_sound : forall Lo1 r r2 rx n2 k2 Lo2 r1 r0 n1 k1 Li tm,
  occ2_dyn_okb Lo1 r r2 rx k2 Lo2 r1 r0 k1 Li (map rem tm) = true ->
  (forall ld, nth_error tm k2 = Some ld -> tsortedb (cur ld) = true) ->
  (forall ld, nth_error tm k1 = Some ld -> tsortedb (cur ld) = true) ->
  forall p,
  let tmA := reach_term Lo1 p tm in
  let tmB := occ_split r r2 rx n2 k2 tmA in
  sum_at p (run_split_split Lo1 (occ_split r r2 rx n2 k2) Lo2 (occ_split rx r1 r0 n1 k1) Li [tm]) =
  if occ_consistent (leader_bounds n1 k1 (reach_term Lo2 p tmB)) r1 r0 p
     && occ_consistent (leader_bounds n2 k2 tmA) r2 rx (collapse rx r0 p)
  then term_den tm (collapse r rx (collapse rx r0 p)) else 0.
Proof.
  intros Lo1 r r2 rx n2 k2 Lo2 r1 r0 n1 k1 Li tm H Hs2 Hs1.
  destruct (occ2_dyn_okb_notin _ _ _ _ _ _ _ _ _ _ _ H) as [Ha [Hb Hc]].
  apply occ_beneath_occ_sound; try assumption. apply occ2_dyn_okb_wf; assumption.
Qed.

Section ExamplesStack.
Local Open Scope string_scope.
(* Z = A[k] * B[k]; K: [uniform_shape(4), uniform_occupancy(A.2)]: K -> (K2, KX) by shape, then beneath K2 the rank KX is
   occupancy-partitioned into (K1, K0).  A = {0,1,2,5,6,7,9}, B = {1,2,4,6,9,10}: under K2 = 4 the boundaries are {5,7} and
   B's 4 lies below the first boundary *)
Definition exs_A : tstate := {| rem := ["K"]; cur := Node [(0, Leaf 1); (1, Leaf 2); (2, Leaf 3); (5, Leaf 4); (6, Leaf 5); (7, Leaf 6); (9, Leaf 7)] |}.
Definition exs_B : tstate := {| rem := ["K"]; cur := Node [(1, Leaf 10); (2, Leaf 20); (4, Leaf 30); (6, Leaf 40); (9, Leaf 50); (10, Leaf 60)] |}.
Definition exs_tm1 : term := map (part_tstate "K" "K2" "KX" 4) [exs_A; exs_B].

Example occ_beneath_shape_example :
  occ_dyn_okb ["K2"] "KX" "K1" "K0" 0 ["K1"; "K0"] (map rem exs_tm1) = true /\
  (forall ld, nth_error exs_tm1 0 = Some ld -> tsortedb (cur ld) = true) /\
  (forall t, In t [exs_A; exs_B] -> NoDup (rem t)) /\ existsb (holds "K") [exs_A; exs_B] = true /\
  run_then_split ["K2"] (occ_split "KX" "K1" "K0" 2 0) ["K1"; "K0"] [exs_tm1] =
    [([("K2", 0); ("K1", 0); ("K0", 1)], 20); ([("K2", 0); ("K1", 2); ("K0", 2)], 60);
     ([("K2", 4); ("K1", 5); ("K0", 6)], 200); ([("K2", 8); ("K1", 9); ("K0", 9)], 350)].
Proof.
  split; [vm_compute; reflexivity|]. split; [intros ld E; injection E as <-; vm_compute; reflexivity|].
  split; [intros t [<-|[<-|[]]]; repeat constructor; intros []|]. split; vm_compute; reflexivity.
Qed.

(* Z[i] = A[i,k] * B[k]; K: [uniform_occupancy(A.4), uniform_occupancy(A.2)] beneath I *)
Definition exs_A2 : tstate := {| rem := ["I"; "K"];
  cur := Node [(0, Node [(0, Leaf 1); (1, Leaf 2); (2, Leaf 3); (5, Leaf 4); (6, Leaf 5); (7, Leaf 6); (9, Leaf 7)]);
               (1, Node [(2, Leaf 1); (4, Leaf 2); (10, Leaf 3)])] |}.
Definition exs_tm2 : term := [exs_A2; exs_B].

Example occ_beneath_occ_example :
  occ2_dyn_okb ["I"] "K" "K2" "KX" 0 ["K2"] "K1" "K0" 0 ["K1"; "K0"] (map rem exs_tm2) = true /\
  (forall ld, nth_error exs_tm2 0 = Some ld -> tsortedb (cur ld) = true) /\
  run_split_split ["I"] (occ_split "K" "K2" "KX" 4 0) ["K2"] (occ_split "KX" "K1" "K0" 2 0) ["K1"; "K0"] [exs_tm2] =
    [([("I", 0); ("K2", 0); ("K1", 0); ("K0", 1)], 20); ([("I", 0); ("K2", 0); ("K1", 2); ("K0", 2)], 60);
     ([("I", 0); ("K2", 6); ("K1", 6); ("K0", 6)], 200); ([("I", 0); ("K2", 6); ("K1", 9); ("K0", 9)], 350);
     ([("I", 1); ("K2", 2); ("K1", 2); ("K0", 2)], 20); ([("I", 1); ("K2", 2); ("K1", 2); ("K0", 4)], 60);
     ([("I", 1); ("K2", 2); ("K1", 10); ("K0", 10)], 180)].
Proof.
  split; [vm_compute; reflexivity|]. split; [intros ld E; injection E as <-; vm_compute; reflexivity|].
  vm_compute. reflexivity.
Qed.
End ExamplesStack.

Lemma matches_upd_except r1 p u q : matches (upd p r1 u) q = true -> matches_except r1 p q = true.
Proof.
  unfold matches, matches_except. rewrite !forallb_forall. intros H rc Hrc. specialize (H rc Hrc).
  destruct rc as [x c]. cbn [fst snd] in *. unfold upd in H. destruct (String.eqb x r1); [reflexivity|exact H].
Qed.

Lemma matches_except_upd r1 p q : NoDup (map fst q) -> matches_except r1 p q = true ->
  exists u, matches (upd p r1 u) q = true.
Proof.
  induction q as [|[x c] q IH]; intros Hnd Hm; [exists 0; reflexivity|].
  cbn [map fst] in Hnd. apply NoDup_cons_iff in Hnd as [Hx Hnd].
  cbn [matches_except forallb fst snd] in Hm. apply andb_true_iff in Hm as [Hm1 Hm2].
  destruct (String.eqb_spec x r1) as [->|Hne].
  - exists c. cbn [matches forallb fst snd]. rewrite upd_eq, Z.eqb_refl. cbn [andb].
    apply forallb_forall. intros rc Hrc. unfold matches_except in Hm2. rewrite forallb_forall in Hm2. specialize (Hm2 rc Hrc).
    destruct rc as [y d]. cbn [fst snd] in *. unfold upd. destruct (String.eqb_spec y r1) as [E|Hn].
    + exfalso. apply Hx. rewrite <- E. apply (in_map fst _ _ Hrc).
    + exact Hm2.
  - destruct (IH Hnd Hm2) as [u Hu]. exists u.
    cbn [matches forallb fst snd]. fold (matches (upd p r1 u) q). rewrite Hu, andb_true_r, upd_neq by exact Hne.
    cbn [orb] in Hm1. exact Hm1.
Qed.

Lemma sum_except_eq_at r1 p u cs :
  (forall qv, In qv cs -> matches_except r1 p (fst qv) = true -> snd qv <> 0 -> matches (upd p r1 u) (fst qv) = true) ->
  sum_except r1 p cs = sum_at (upd p r1 u) cs.
Proof.
  induction cs as [|x cs IH]; intros H; [reflexivity|]. cbn [sum_except sum_at].
  rewrite IH by (intros qv Hq; apply H; right; exact Hq).
  destruct (matches (upd p r1 u) (fst x)) eqn:Em.
  - rewrite (matches_upd_except r1 p u _ Em). reflexivity.
  - destruct (matches_except r1 p (fst x)) eqn:Ee; [|reflexivity].
    destruct (Z.eq_dec (snd x) 0) as [->|Hnz]; [lia|].
    rewrite (H x (or_introl eq_refl) Ee Hnz) in Em. discriminate.
Qed.

(* a point is an output point that fixes every rank *)
Lemma matches_all p (a : list (rank * coord)) : matches p a = true -> a = map (fun r => (r, p r)) (map fst a).
Proof.
  intros H. apply (matches_out_all (map fst a)); [intros r; apply rmem_in|].
  unfold matches, matches_out in *. rewrite forallb_forall in *. intros rc Hrc. rewrite (H rc Hrc). apply orb_true_r.
Qed.

Lemma sum_at_none p cs : (forall x, In x cs -> matches p (fst x) = false) -> sum_at p cs = 0.
Proof.
  induction cs as [|x cs IH]; intros H; [reflexivity|]. cbn [sum_at]. rewrite (H x (or_introl eq_refl)).
  apply IH. intros y Hy. apply H. right. exact Hy.
Qed.

Lemma sum_at_unique : forall L p cs qv, NoDup (map fst cs) -> (forall qv', In qv' cs -> map fst (fst qv') = L) ->
  In qv cs -> matches p (fst qv) = true -> sum_at p cs = snd qv.
Proof.
  intros L p cs qv Hnd Hk Hin Hm.
  assert (Hother : forall x, In x cs -> matches p (fst x) = true -> fst x = fst qv).
  { intros x Hx Hmx. rewrite (matches_all p _ Hmx), (matches_all p _ Hm), (Hk x Hx), (Hk qv Hin). reflexivity. }
  apply in_split in Hin as [a [b ->]]. rewrite map_app in Hnd. apply NoDup_remove_2 in Hnd. rewrite <- map_app in Hnd.
  rewrite sum_at_app. cbn [sum_at]. rewrite Hm.
  (* a second match, before or after qv, would carry the key of qv *)
  assert (Hrest : forall x, In x (a ++ b) -> matches p (fst x) = false).
  { intros x Hx. destruct (matches p (fst x)) eqn:E; [|reflexivity]. exfalso. apply Hnd.
    rewrite <- (Hother x); [apply in_map; exact Hx|apply in_app_or in Hx as [Hx|Hx]; apply in_or_app; [left|right; right]; exact Hx|exact E]. }
  rewrite !sum_at_none; [lia| |]; intros x Hx; apply Hrest, in_or_app; [right|left]; exact Hx.
Qed.

Lemma sum_except_pick : forall L r1 p cs u0,
  NoDup (map fst cs) -> (forall qv, In qv cs -> map fst (fst qv) = L) -> NoDup L ->
  (forall u, sum_at (upd p r1 u) cs <> 0 -> u = u0) ->
  sum_except r1 p cs = sum_at (upd p r1 u0) cs.
Proof.
  intros L r1 p cs u0 Hnd Hk HL Huniq. apply sum_except_eq_at. intros qv Hq Hm Hnz.
  destruct (matches_except_upd r1 p (fst qv)) as [u Hu]; [rewrite (Hk qv Hq); exact HL|exact Hm|].
  (* qv is the one contribution at its own upper coordinate u, and its value is not 0: u is u0 *)
  rewrite <- (Huniq u); [exact Hu|]. rewrite (sum_at_unique L _ cs qv Hnd Hk Hq Hu). exact Hnz.
Qed.

(* the dynamic occupancy split, summed over the upper coordinate: the contributions whose key agrees with p outside r1 add
   up to the value of the term at the collapsed point - when the lower coordinate has a partition; to 0 otherwise (then
   the lower coordinate lies below the leader's first element and the term is 0 there anyway: occ_point_has_partition) *)
Theorem occ_dyn_sum_over_upper : forall Lo r r1 r0 n k Li tm,
  ~ In r Lo -> ~ In r1 Lo -> r1 <> r0 -> In r1 Li -> NoDup (Lo ++ Li) ->
  (forall t, In t tm -> ~ In r1 (rem t)) ->
  wf_outer Lo (occ_state_ok r r1 r0 n k Li) [tm] ->
  forall p, sum_except r1 p (run_then_split Lo (occ_split r r1 r0 n k) Li [tm]) =
            match part_of (leader_bounds n k (reach_term Lo p tm)) (p r0) with
            | Some _ => term_den tm (collapse r r0 p)
            | None => 0
            end.
Proof.
  intros Lo r r1 r0 n k Li tm Hr Hr1 Hne _ HL Hfresh Hwf p. set (bs := leader_bounds n k (reach_term Lo p tm)).
  rewrite (sum_except_pick (Lo ++ Li) r1 p _ (match part_of bs (p r0) with Some u => u | None => 0 end)).
  - rewrite (occ_dyn_sound_upd Lo r r1 r0 n k Li tm Hr Hr1 Hne Hwf). fold bs. unfold in_class.
    destruct (part_of bs (p r0)) as [u|]; [|reflexivity]. rewrite Z.eqb_refl. apply term_den_collapse_upd_fresh; assumption.
  - unfold run_then_split. rewrite run_k_is_nest. apply nest_keys_nodup. intros s. apply run_keys_nodup.
  - unfold run_then_split. rewrite run_k_is_nest. apply nest_keys_ranks. intros s. apply run_keys_ranks.
  - exact HL.
  - intros u Hnz. unfold bs. rewrite (occ_dyn_upper_unique Lo r r1 r0 n k Li tm Hr Hr1 Hne Hwf p u Hnz). reflexivity.
Qed.


Section ExamplesSum.
Local Open Scope string_scope.
(* the dynamic example again: whatever upper coordinate the point carries, the contributions that agree with it outside K1
   add up to the value at the collapsed point; at I = 0 the follower's coordinate 0 lies below the first boundary 1 *)
Example occ_dyn_sum_example :
  let cs := run_then_split ["I"] (occ_split "K" "K1" "K0" 2 0) ["K1"; "K0"] [exd_tm] in
  In "K1" ["K1"; "K0"] /\ NoDup (["I"] ++ ["K1"; "K0"]) /\ (forall t, In t exd_tm -> ~ In "K1" (rem t)) /\
  sum_except "K1" (exd_point 2 (-7) 3) cs = 44 /\ term_den exd_tm (collapse "K" "K0" (exd_point 2 (-7) 3)) = 44 /\
  sum_except "K1" (exd_point 0 (-7) 0) cs = 0 /\ part_of (leader_bounds 2 0 (reach_term ["I"] (exd_point 0 (-7) 0) exd_tm)) 0 = None.
Proof.
  cbv zeta. split; [left; reflexivity|]. split.
  { repeat constructor; cbn; intros H; repeat (destruct H as [H|H]; [discriminate|]); exact H. }
  split.
  { intros t [<-|[<-|[]]]; cbn; intros H; repeat (destruct H as [H|H]; [discriminate|]); exact H. }
  repeat split; vm_compute; reflexivity.
Qed.
End ExamplesSum.

Lemma occ_tstate_NoDup r r1 r0 bs t : NoDup (rem t) -> ~ In r1 (rem t) -> ~ In r0 (rem t) -> r1 <> r0 ->
  NoDup (rem (occ_tstate r r1 r0 bs t)).
Proof.
  intros Hnd H1 H0 Hne. unfold occ_tstate. destruct t as [rs cu]; cbn [rem cur] in *. destruct rs as [|x rest]; [exact Hnd|].
  destruct (String.eqb x r); cbn [rem]; [|exact Hnd]. apply NoDup_cons_iff in Hnd as [_ Hnd].
  constructor; [intros [E|H]; [congruence|apply H1; right; exact H]|].
  constructor; [intros H; apply H0; right; exact H|exact Hnd].
Qed.

Lemma holds_occ_tstate r r1 r0 bs t : r1 <> r0 -> participates r t = true -> holds r0 (occ_tstate r r1 r0 bs t) = true.
Proof.
  intros Hne Hp. unfold participates in Hp. unfold occ_tstate, holds. destruct t as [rs cu]; cbn [rem cur] in *.
  destruct rs as [|x rest]; [discriminate|]. rewrite Hp. cbn [rem index_of].
  destruct (String.eqb_spec r1 r0); [contradiction|]. rewrite String.eqb_refl. reflexivity.
Qed.

Lemma occ_split_NoDup r r1 r0 n k tm : r1 <> r0 -> term_ok r tm ->
  (forall t, In t tm -> ~ In r1 (rem t) /\ ~ In r0 (rem t)) -> forall t, In t (occ_split r r1 r0 n k tm) -> NoDup (rem t).
Proof.
  intros Hne Hok Hfresh t Ht. apply in_map_iff in Ht as [t0 [<- Ht0]].
  destruct (Hok t0 Ht0) as [Hnd _]. destruct (Hfresh t0 Ht0) as [H1 H0]. apply occ_tstate_NoDup; assumption.
Qed.

Lemma occ_split_holds r r1 r0 n k tm : r1 <> r0 -> leader_ok r k tm -> existsb (holds r0) (occ_split r r1 r0 n k tm) = true.
Proof.
  intros Hne [ld [Hk [Hp _]]]. apply existsb_exists. exists (occ_tstate r r1 r0 (leader_bounds n k tm) ld).
  split; [apply in_map; eapply nth_error_In; exact Hk|apply holds_occ_tstate; assumption].
Qed.

Theorem shape_beneath_occ_sound : forall Lo r r2 rx n k r1 r0 s Li tm,
  ~ In r Lo -> ~ In rx Lo -> r2 <> rx ->
  wf_outer Lo (occ_shape_state_ok r r2 rx n k r1 r0 s Li) [tm] ->
  forall p, sum_at p (run_then_split Lo (occ_then_shape r r2 rx n k r1 r0 s) Li [tm]) =
            if consistent r1 r0 s p && occ_consistent (leader_bounds n k (reach_term Lo p tm)) r2 rx (collapse rx r0 p)
            then term_den tm (collapse r rx (collapse rx r0 p)) else 0.
Proof.
  intros Lo r r2 rx n k r1 r0 s Li tm Hr Hrx Hne Hwf p.
  apply (run_k_term Lo _ _ (fun tmA => consistent r1 r0 s p && occ_consistent (leader_bounds n k tmA) r2 rx (collapse rx r0 p))
           tm p _ Hwf (collapse2_outer r rx r0 p Lo Hr Hrx)).
  intros tmA [Hok Hwfi]. destruct (Hok tmA (or_introl eq_refl)) as [Hto [Hld Hfresh]].
  rewrite (nest_sound Li _ Hwfi p). cbn [map]. rewrite body_den_single. unfold occ_then_shape.
  rewrite (term_den_part rx r1 r0 s _ p (occ_split_NoDup r r2 rx n k tmA Hne Hto Hfresh)), (occ_split_holds r r2 rx n k tmA Hne Hld).
  destruct (consistent r1 r0 s p); cbn [andb]; [|reflexivity].
  apply term_den_occ_split; assumption.
Qed.


Section ExamplesSB.
Local Open Scope string_scope.
(* Z = A[k] * B[k]; K: [uniform_occupancy(A.4), uniform_shape(2)], loop order K2, K1, K0 *)
Example shape_beneath_occ_example :
  let tm := [exs_A; exs_B] in
  wf_outer [] (occ_shape_state_ok "K" "K2" "KX" 4 0 "K1" "K0" 2 ["K2"; "K1"; "K0"]) [tm] /\
  run_then_split [] (occ_then_shape "K" "K2" "KX" 4 0 "K1" "K0" 2) ["K2"; "K1"; "K0"] [tm] =
    [([("K2", 0); ("K1", 0); ("K0", 1)], 20); ([("K2", 0); ("K1", 2); ("K0", 2)], 60);
     ([("K2", 6); ("K1", 6); ("K0", 6)], 200); ([("K2", 6); ("K1", 8); ("K0", 9)], 350)].
Proof.
  cbv zeta. split; [|vm_compute; reflexivity]. cbn [wf_outer]. split.
  - intros tm' [<-|[]]. split; [apply term_okb_sound; vm_compute; reflexivity|].
    split; [apply leader_okb_sound; vm_compute; reflexivity|].
    intros t [<-|[<-|[]]]; split; cbn; intros H; repeat (destruct H as [H|H]; [discriminate|]); exact H.
  - apply swf_wf. vm_compute. reflexivity.
Qed.
End ExamplesSB.

Lemma to_rt_node l : to_rt (Node l) = Rt.TNode (map to_rt_ct l).
Proof. reflexivity. Qed.

Lemma split_bounds_to_rt bs l :
  Rt.split_bounds (map Rt.VInt bs) (map to_rt_ct l) = map to_rt_ct (bounds_split bs l).
Proof.
  induction bs as [|b bs IH]; [reflexivity|]. cbn [map Rt.split_bounds bounds_split].
  rewrite filter_map_comm. rewrite IH.
  assert (E : filter (fun x : coord * trie =>
                 Rt.vleb (Rt.VInt b) (fst (to_rt_ct x)) &&
                 match match map Rt.VInt bs with b' :: _ => Some b' | [] => None end with
                 | Some h => Rt.vltb (fst (to_rt_ct x)) h | None => true end) l
              = filter (fun ct : coord * trie => in_window b bs (fst ct)) l).
  { apply filter_ext. intros x. unfold to_rt_ct, in_window. cbn [fst]. rewrite RtLaws.vleb_int.
    destruct bs as [|b' bs']; cbn [map]; [reflexivity|]. rewrite RtLaws.vltb_int. reflexivity. }
  rewrite E. destruct (filter (fun ct : coord * trie => in_window b bs (fst ct)) l) as [|x sel]; reflexivity.
Qed.

Theorem bounds_split_is_split_nonuniform bs l :
  Rt.split_nonuniform (map Rt.VInt bs) (to_rt (Node l)) = Some (to_rt (Node (bounds_split bs l))).
Proof. rewrite !to_rt_node. cbn [Rt.split_nonuniform]. rewrite split_bounds_to_rt. reflexivity. Qed.

Lemma equal_split_to_rt n : (0 < n)%nat -> forall fuel l,
  map (fun ch => (match ch with (c, _) :: _ => c | [] => Rt.VNone end, Rt.TNode ch)) (Rt.chunks fuel n (map to_rt_ct l))
  = map to_rt_ct (equal_split fuel n l).
Proof.
  intros Hn. induction fuel as [|f IH]; intros l; [reflexivity|]. destruct l as [|ct l]; [reflexivity|].
  change (to_rt_ct ct :: map to_rt_ct l) with (map to_rt_ct (ct :: l)). cbn [Rt.chunks equal_split].
  rewrite firstn_map, skipn_map. cbn [map]. rewrite IH. destruct n as [|m]; [lia|]. reflexivity.
Qed.

Theorem equal_split_is_split_equal n l : (0 < n)%nat ->
  Rt.split_equal (Z.of_nat n) (to_rt (Node l)) = Some (to_rt (Node (equal_split (S (List.length l)) n l))).
Proof.
  intros Hn. rewrite !to_rt_node. unfold Rt.split_equal.
  destruct (Z.leb_spec (Z.of_nat n) 0); [lia|]. rewrite Nat2Z.id, map_length, (equal_split_to_rt n Hn). reflexivity.
Qed.

(* hence, for the leader, the two runtime operations agree: splitNonUniform at the boundaries of splitEqual(n) is
   splitEqual(n) *)
Corollary leader_split_nonuniform_is_split_equal n l : (0 < n)%nat -> StronglySorted Z.lt (keys l) ->
  Rt.split_nonuniform (map Rt.VInt (chunk_starts n l)) (to_rt (Node l)) = Rt.split_equal (Z.of_nat n) (to_rt (Node l)).
Proof.
  intros Hn Hs. rewrite bounds_split_is_split_nonuniform, (equal_split_is_split_equal n l Hn).
  rewrite (leader_equal_split n Hn (S (List.length l)) l (Nat.lt_succ_diag_r _) Hs). reflexivity.
Qed.
