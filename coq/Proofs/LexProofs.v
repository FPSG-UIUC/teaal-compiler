(* The tokenizer of Model/Lex.v is the inverse of writing tokens out with blanks between them.

     lex_render : lex m (render ts ws) = Some ts     for tokens of mode m, blank strings ws (any, also empty),
                                                     and no adjacent pair of tokens that would glue
     lex_sound  : lex m s = Some ts  ->  s = render ts ws for some blank strings ws, and every token is a token of mode m
*)
From Coq Require Import String Ascii List Bool NArith Lia.
Require Import TV.Model.Lex.
Import ListNotations.
Open Scope string_scope.

(* here and in every importer [simpl] leaves the class tests alone instead of unfolding them into
   comparisons of character codes *)
Global Arguments is_blank : simpl never.
Global Arguments is_alpha : simpl never.
Global Arguments is_digit : simpl never.
Global Arguments is_alnum : simpl never.
Global Arguments sym_of_char : simpl never.

Lemma sapp_nil_r (s : string) : s ++ "" = s.
Proof. induction s; simpl; congruence. Qed.

Lemma sapp_assoc (a b c : string) : (a ++ b) ++ c = a ++ b ++ c.
Proof. induction a; simpl; congruence. Qed.

Lemma slength_app (a b : string) : String.length (a ++ b) = String.length a + String.length b.
Proof. induction a; simpl; congruence. Qed.

Lemma all_chars_app p a b : all_chars p (a ++ b) = all_chars p a && all_chars p b.
Proof. induction a; simpl; auto. rewrite IHa. now rewrite andb_assoc. Qed.

Lemma all_chars_weaken (p q : ascii -> bool) s : (forall c, p c = true -> q c = true) -> all_chars p s = true -> all_chars q s = true.
Proof.
  intros H. induction s as [|c s IH]; simpl; auto. intros E. apply andb_prop in E. destruct E as [E1 E2].
  rewrite (H _ E1), (IH E2). reflexivity.
Qed.

Definition hd_char (s : string) : option ascii := match s with EmptyString => None | String c _ => Some c end.

Definition stops (p : ascii -> bool) (s : string) : Prop := forall d, hd_char s = Some d -> p d = false.

Lemma stops_app p a b : stops p a -> (a = "" -> stops p b) -> stops p (a ++ b).
Proof. destruct a; auto. Qed.

Lemma stops_orb p q s : stops (fun d => p d || q d) s -> stops p s /\ stops q s.
Proof. intros H. split; intros d Hd; apply H, orb_false_iff in Hd; tauto. Qed.

Lemma span_app p w rest : all_chars p w = true -> stops p rest -> span p (w ++ rest) = (w, rest).
Proof.
  induction w as [|c w IH]; simpl; intros Hw Hr.
  - destruct rest as [|d r]; simpl; auto. rewrite (Hr d eq_refl). reflexivity.
  - apply andb_prop in Hw. destruct Hw as [Hc Hw]. rewrite Hc, (IH Hw Hr). reflexivity.
Qed.

Lemma span_spec p s : let (a, b) := span p s in s = a ++ b /\ all_chars p a = true /\ stops p b.
Proof.
  induction s as [|c s IH]; simpl.
  - repeat split. discriminate.
  - destruct (p c) eqn:Hc.
    + destruct (span p s) as [a b]. destruct IH as (-> & Ha & Hb). simpl. rewrite Hc. auto.
    + repeat split. intros d [= <-]. exact Hc.
Qed.

Lemma span_length p s a b : span p s = (a, b) -> String.length b <= String.length s.
Proof. intros H. pose proof (span_spec p s) as S. rewrite H in S. destruct S as (-> & _). rewrite slength_app. lia. Qed.

(* The 256 characters fall into five classes; the one sweep below establishes the table, and everything
   else about the four tests is read off it by [destruct (classify c)]. *)
Inductive char_class (c : ascii) : bool -> bool -> bool -> option sym -> Prop :=
| CBlank : char_class c true false false None
| CAlpha : char_class c false true false None
| CDigit : char_class c false false true None
| CSym y : c = sym_char y -> char_class c false false false (Some y)
| COther : char_class c false false false None.

Lemma classify c : char_class c (is_blank c) (is_alpha c) (is_digit c) (sym_of_char c).
Proof. destruct c as [[] [] [] [] [] [] [] []]; vm_compute; constructor; reflexivity. Qed.

Lemma blank_not_alpha c : is_blank c = true -> is_alpha c = false.
Proof. now destruct (classify c). Qed.
Lemma blank_not_digit c : is_blank c = true -> is_digit c = false.
Proof. now destruct (classify c). Qed.
Lemma blank_not_alnum c : is_blank c = true -> is_alnum c = false.
Proof. unfold is_alnum. now destruct (classify c). Qed.
Lemma blank_not_sym c : is_blank c = true -> sym_of_char c = None.
Proof. now destruct (classify c). Qed.
Lemma alpha_not_blank c : is_alpha c = true -> is_blank c = false.
Proof. now destruct (classify c). Qed.
Lemma alpha_not_digit c : is_alpha c = true -> is_digit c = false.
Proof. now destruct (classify c). Qed.
Lemma digit_not_blank c : is_digit c = true -> is_blank c = false.
Proof. now destruct (classify c). Qed.
Lemma digit_not_alpha c : is_digit c = true -> is_alpha c = false.
Proof. now destruct (classify c). Qed.
Lemma alpha_alnum c : is_alpha c = true -> is_alnum c = true.
Proof. unfold is_alnum. intros ->. reflexivity. Qed.
Lemma digit_alnum c : is_digit c = true -> is_alnum c = true.
Proof. unfold is_alnum. intros ->. apply orb_true_r. Qed.
Lemma sym_not_blank c y : sym_of_char c = Some y -> is_blank c = false.
Proof. now destruct (classify c). Qed.
Lemma sym_not_alpha c y : sym_of_char c = Some y -> is_alpha c = false.
Proof. now destruct (classify c). Qed.
Lemma sym_not_digit c y : sym_of_char c = Some y -> is_digit c = false.
Proof. now destruct (classify c). Qed.
Lemma sym_not_alnum c y : sym_of_char c = Some y -> is_alnum c = false.
Proof. unfold is_alnum. now destruct (classify c). Qed.
Lemma sym_of_sym_char y : sym_of_char (sym_char y) = Some y.
Proof. destruct y; reflexivity. Qed.
Lemma sym_char_of_sym c y : sym_of_char c = Some y -> c = sym_char y.
Proof. destruct (classify c); congruence. Qed.
Lemma lpar_not_alnum c : Ascii.eqb c "("%char = true -> is_alnum c = false.
Proof. intros H. apply Ascii.eqb_eq in H. subst c. reflexivity. Qed.
Lemma blank_not_lpar c : is_blank c = true -> Ascii.eqb c "("%char = false.
Proof. destruct (Ascii.eqb_spec c "("%char); [subst c; discriminate|reflexivity]. Qed.

Lemma sym_eqb_eq a b : sym_eqb a b = true -> a = b.
Proof. destruct a, b; simpl; intros H; try discriminate; reflexivity. Qed.
Lemma sym_eqb_refl a : sym_eqb a a = true.
Proof. destruct a; reflexivity. Qed.
Lemma tok_eqb_eq a b : tok_eqb a b = true -> a = b.
Proof.
  destruct a, b; simpl; intros H; try discriminate; try reflexivity;
    try (apply String.eqb_eq in H; now subst).
  apply sym_eqb_eq in H. now subst.
Qed.
Lemma tok_eqb_refl a : tok_eqb a a = true.
Proof. destruct a; simpl; try apply String.eqb_refl; try reflexivity. apply sym_eqb_refl. Qed.

Lemma sepfree_cons t ts : sepfree (t :: ts) = match ts with [] => true | t2 :: _ => negb (glue_bad t t2) && sepfree ts end.
Proof. destruct ts; reflexivity. Qed.

Lemma sepfree_tail t ts : sepfree (t :: ts) = true -> sepfree ts = true.
Proof. rewrite sepfree_cons. destruct ts; auto. intros H. apply andb_prop in H. tauto. Qed.

Lemma blanks_hd ws : blanks ws = true -> blank (hd EmptyString ws) = true.
Proof. destruct ws; simpl; auto. intros H. apply andb_prop in H. tauto. Qed.
Lemma blanks_tl ws : blanks ws = true -> blanks (tl ws) = true.
Proof. destruct ws; simpl; auto. intros H. apply andb_prop in H. tauto. Qed.

Lemma lex_skip m w n s : blank w = true -> lex_fuel m (String.length w + n) (w ++ s) = lex_fuel m n s.
Proof.
  induction w as [|c w IH]; simpl; intros Hb; auto.
  apply andb_prop in Hb. destruct Hb as [Hc Hw]. rewrite Hc. auto.
Qed.

Lemma lex_blank_only m w n : blank w = true -> String.length w < n -> lex_fuel m n w = Some [].
Proof.
  intros Hb Hn. rewrite <- (sapp_nil_r w). replace n with (String.length w + S (n - String.length w - 1)) by lia.
  now rewrite lex_skip.
Qed.

(* the characters that may not directly follow the text of t: the lexer would read them as part of it *)
Definition glues (t : token) (d : ascii) : bool :=
  match t with
  | TName _ => is_alnum d || Ascii.eqb d "("%char
  | TNum _ => is_digit d
  | TDotW _ => is_alnum d
  | _ => false
  end.

Lemma lex_tok m t rest n :
  tok_ok m t = true -> stops (glues t) rest -> lex_fuel m (S n) (text t ++ rest) = ocons t (lex_fuel m n rest).
Proof.
  intros Hok Hh. destruct t as [s|s|s|s| |y]; simpl in Hok.
  - destruct s as [|c w]; [discriminate|]. simpl in Hok. apply andb_prop in Hok. destruct Hok as [Hc Hw].
    apply stops_orb in Hh. destruct Hh as [Hst Hpar].
    simpl. rewrite (alpha_not_blank _ Hc), Hc, (span_app _ _ _ Hw Hst).
    destruct rest as [|d r]; auto. now rewrite (Hpar d eq_refl).
  - destruct s as [|c w]; [discriminate|]. simpl in Hok. apply andb_prop in Hok. destruct Hok as [Hc Hw].
    simpl. rewrite (digit_not_blank _ Hc), (digit_not_alpha _ Hc), Hc, (span_app _ _ _ Hw Hh). reflexivity.
  - destruct s as [|c w]; [discriminate|]. simpl in Hok. apply andb_prop in Hok. destruct Hok as [Hc Hw].
    simpl. rewrite (alpha_not_blank _ Hc), Hc, sapp_assoc, (span_app _ _ _ Hw); [reflexivity|].
    intros d [= <-]. reflexivity.
  - apply andb_prop in Hok. destruct Hok as [Hm Hw]. destruct m; try discriminate.
    simpl. rewrite (span_app _ _ _ Hw Hh). reflexivity.
  - destruct m; try discriminate. reflexivity.
  - destruct y, m; try discriminate; reflexivity.
Qed.

Lemma blank_stops t w : blank w = true -> stops (glues t) w.
Proof.
  destruct w as [|c w]; intros H d [= <-]. simpl in H. apply andb_prop in H. destruct H as [H _].
  destruct t; simpl; auto.
  - now rewrite (blank_not_alnum _ H), (blank_not_lpar _ H).
  - now apply blank_not_digit.
  - now apply blank_not_alnum.
Qed.

Lemma glue_stops t1 t2 r : glue_bad t1 t2 = false -> stops (glues t1) (text t2 ++ r).
Proof.
  intros Hg d Hd.
  destruct t1 as [s1|s1|s1|s1| |y1]; try reflexivity; destruct t2 as [s|s|s|s| |y]; try discriminate Hg;
    injection Hd as <-; try reflexivity; destruct y; try reflexivity; discriminate Hg.
Qed.

Lemma render_stops t1 ts ws : blanks ws = true -> sepfree (t1 :: ts) = true -> stops (glues t1) (render ts ws).
Proof.
  intros Hb Hs. pose proof (blank_stops t1 _ (blanks_hd _ Hb)) as Hw.
  destruct ts as [|t2 ts]; [exact Hw|]. simpl. apply stops_app; [exact Hw|intros _].
  rewrite sepfree_cons in Hs. apply andb_prop in Hs. destruct Hs as [Hg _]. apply negb_true_iff in Hg.
  now apply glue_stops.
Qed.

Lemma text_length m t : tok_ok m t = true -> 1 <= String.length (text t).
Proof. destruct t as [[]|[]|[]| | |]; simpl; try discriminate; lia. Qed.

Lemma lex_fuel_render m ts : forall ws n,
  forallb (tok_ok m) ts = true -> blanks ws = true -> sepfree ts = true ->
  String.length (render ts ws) < n -> lex_fuel m n (render ts ws) = Some ts.
Proof.
  induction ts as [|t ts IH]; intros ws n Hok Hb Hs Hn.
  - apply lex_blank_only; auto. now apply blanks_hd.
  - simpl in Hok. apply andb_prop in Hok. destruct Hok as [Hok1 Hok].
    simpl in Hn |- *. set (w := hd EmptyString ws) in *.
    rewrite !slength_app in Hn.
    pose proof (text_length _ _ Hok1) as Hl.
    replace n with (String.length w + S (n - String.length w - 1)) by lia.
    rewrite lex_skip by (now apply blanks_hd).
    assert (Hh : stops (glues t) (render ts (tl ws))) by (apply render_stops; auto using blanks_tl).
    rewrite (lex_tok m t _ _ Hok1 Hh), IH; auto using blanks_tl, (sepfree_tail t). lia.
Qed.

Theorem lex_render m ts ws :
  forallb (tok_ok m) ts = true -> blanks ws = true -> sepfree ts = true -> lex m (render ts ws) = Some ts.
Proof. intros. unfold lex. apply lex_fuel_render; auto. Qed.

Lemma ocons_some {A} (a : A) o l : ocons a o = Some l -> exists l', o = Some l' /\ l = a :: l'.
Proof. destruct o; simpl; intros H; inversion H; eauto. Qed.

Definition written (m : lmode) (s : string) (ts : list token) : Prop :=
  exists ws, blanks ws = true /\ List.length ws = S (List.length ts) /\ s = render ts ws /\ forallb (tok_ok m) ts = true.

Lemma written_blank m c r ts : is_blank c = true -> written m r ts -> written m (String c r) ts.
Proof.
  intros Hc (ws & Hb & Hlen & -> & Hok). destruct ws as [|w ws]; [discriminate|].
  exists (String c w :: ws). repeat split; auto.
  - simpl in *. unfold blank at 1. simpl. now rewrite Hc.
  - destruct ts; reflexivity.
Qed.

Lemma written_tok m t r ts : tok_ok m t = true -> written m r ts -> written m (text t ++ r) (t :: ts).
Proof. intros Ht (ws & Hb & Hlen & -> & Hok). exists (EmptyString :: ws). simpl. rewrite Ht, Hlen. auto. Qed.

Lemma lex_fuel_sound m n : forall s ts, lex_fuel m n s = Some ts -> written m s ts.
Proof.
  induction n as [|n IH]; intros s ts H; [discriminate|].
  (* what every branch that emits a token t and goes on with r' comes to *)
  assert (K : forall t r', ocons t (lex_fuel m n r') = Some ts -> tok_ok m t = true -> s = text t ++ r' -> written m s ts).
  { intros t r' H' Ht ->. apply ocons_some in H'. destruct H' as (l & Hl & ->). apply written_tok; auto. }
  simpl in H. destruct s as [|c r].
  - injection H as <-. exists [EmptyString]. repeat split; reflexivity.
  - destruct (is_blank c) eqn:Hbl; [apply written_blank; auto|].
    destruct (is_alpha c) eqn:Hal.
    { pose proof (span_spec is_alnum r) as S. destruct (span is_alnum r) as [w r1]. destruct S as (-> & Hw & _).
      assert (Hid : is_ident (String c w) = true) by (simpl; now rewrite Hal, Hw).
      destruct r1 as [|c1 r2]; [|destruct (Ascii.eqb_spec c1 "("%char)].
      - exact (K (TName (String c w)) "" H Hid eq_refl).
      - subst c1. apply (K (TKw (String c w)) r2); auto. simpl. now rewrite sapp_assoc.
      - exact (K (TName (String c w)) _ H Hid eq_refl). }
    destruct (is_digit c) eqn:Hdg.
    { pose proof (span_spec is_digit r) as S. destruct (span is_digit r) as [w r1]. destruct S as (-> & Hw & _).
      apply (K (TNum (String c w)) r1); auto. simpl. now rewrite Hdg, Hw. }
    destruct (sym_of_char c) as [y|] eqn:Hsy; [|discriminate].
    apply sym_char_of_sym in Hsy. subst c.
    destruct y; try exact (K (TSym _) r H eq_refl eq_refl).
    + destruct (is_mrange m) eqn:Hm; [|apply (K (TSym SLBrack) r H); [simpl; now rewrite Hm|reflexivity]].
      destruct r as [|a [|b [|d r3]]]; try discriminate.
      destruct (Ascii.eqb_spec a "0"%char), (Ascii.eqb_spec b "."%char), (Ascii.eqb_spec d "."%char); try discriminate.
      subst. apply (K TRange r3); auto.
    + destruct (is_mdot m) eqn:Hm; [|apply (K (TSym SDot) r H); [simpl; now rewrite Hm|reflexivity]].
      pose proof (span_spec is_alnum r) as S. destruct (span is_alnum r) as [w r1]. destruct S as (-> & Hw & _).
      apply (K (TDotW w) r1); auto. simpl. now rewrite Hm.
Qed.

Theorem lex_sound m s ts : lex m s = Some ts ->
  exists ws, blanks ws = true /\ List.length ws = S (List.length ts) /\ s = render ts ws /\ forallb (tok_ok m) ts = true.
Proof. apply lex_fuel_sound. Qed.

Lemma value_acc_app a s1 s2 : value_acc a (s1 ++ s2) = value_acc (value_acc a s1) s2.
Proof. revert a. induction s1; simpl; auto. Qed.

Lemma value_snoc s c : value (s ++ String c EmptyString) = (value s * 10 + digit_val c)%N.
Proof. unfold value. rewrite value_acc_app. reflexivity. Qed.

Lemma value_zeros z : all_chars (fun c => Ascii.eqb c "0"%char) z = true -> value z = 0%N.
Proof.
  induction z as [|c z IH]; simpl; intros H; [reflexivity|].
  apply andb_prop in H. destruct H as [Hc Hz]. apply Ascii.eqb_eq in Hc. subst c. exact (IH Hz).
Qed.

Lemma value_leading_zeros z s : all_chars (fun c => Ascii.eqb c "0"%char) z = true -> value (z ++ s) = value s.
Proof. intros H. unfold value. rewrite value_acc_app. fold (value z). now rewrite value_zeros. Qed.
