(* C02 at the level of loop nests: for ANY loop order over the levels (any L' that is well-formed for the partitioned
   tensors), the nest over shape-partitioned tensors contributes, at every consistent point, exactly what the Einsum
   defines at the original point, and nothing at inconsistent points. *)
From Coq Require Import ZArith List Bool String.
Require Import TV.Proofs.ListFacts TV.Model.Nest TV.Proofs.NestProofs TV.Model.NestPart.
Import ListNotations.
Open Scope Z_scope.

Lemma collapse_eq r r0 p : collapse r r0 p r = p r0.
Proof. apply upd_eq. Qed.
Lemma collapse_neq r r0 p x : x <> r -> collapse r r0 p x = p x.
Proof. apply upd_neq. Qed.

Lemma map_collapse_notin r r0 p rs : ~ In r rs -> map (collapse r r0 p) rs = map p rs.
Proof. intros Hn. apply map_ext_in. intros x Hx. apply collapse_neq. intros ->. exact (Hn Hx). Qed.

Definition in_class (class : Z -> option Z) (u c : Z) : bool :=
  match class c with Some u' => u' =? u | None => false end.

Definition lookup2 (u c : Z) (l' : list (coord * trie)) : option trie :=
  match lookup u l' with Some (Node sel) => lookup c sel | _ => None end.

(* Both splitUniform (class c = Some (bucket s c)) and splitNonUniform (class = NestOcc.part_of bs) cut a fiber this way. *)
Definition cut_by (class : Z -> option Z) (l l' : list (coord * trie)) : Prop :=
  forall u c, lookup2 u c l' = if in_class class u c then lookup c l else None.

Lemma lookup2_cons u c b sel rest :
  lookup2 u c ((b, Node sel) :: rest) = if u =? b then lookup c sel else lookup2 u c rest.
Proof. unfold lookup2. cbn [lookup]. destruct (u =? b); reflexivity. Qed.

Lemma nlookup_cut class l l' u c post : cut_by class l l' ->
  nlookup (u :: c :: post) (Node l') = if in_class class u c then nlookup (c :: post) (Node l) else None.
Proof.
  intros Hcut. transitivity (match lookup2 u c l' with Some t => nlookup post t | None => None end).
  { cbn [nlookup]. unfold lookup2. destruct (lookup u l') as [[v|sel]|]; reflexivity. }
  rewrite Hcut. destruct (in_class class u c); reflexivity.
Qed.

Lemma den_cut class l l' rs p r r1 r0 : cut_by class l l' -> ~ In r rs ->
  den (r1 :: r0 :: rs) (Node l') p =
  if in_class class (p r1) (p r0) then den (r :: rs) (Node l) (collapse r r0 p) else 0.
Proof.
  intros Hcut Hn. rewrite !den_nlookup. cbn [map].
  rewrite (nlookup_cut class l l' _ _ _ Hcut), collapse_eq, (map_collapse_notin r r0 p rs Hn).
  destruct (in_class class (p r1) (p r0)); reflexivity.
Qed.

Lemma lookup_split_node s q l :
  lookup q (split_node s l) =
  if existsb (Z.eqb q) (nodup Z.eq_dec (map (fun ct => bucket s (fst ct)) l))
  then Some (Node (filter (fun ct => Z.eqb (bucket s (fst ct)) q) l)) else None.
Proof.
  unfold split_node. induction (nodup Z.eq_dec (map (fun ct => bucket s (fst ct)) l)) as [|k ks IH]; [reflexivity|].
  cbn [map lookup existsb]. destruct (Z.eqb_spec q k) as [->|Hne]; [reflexivity|exact IH].
Qed.

Lemma split_node_cut s l : cut_by (fun c => Some (bucket s c)) l (split_node s l).
Proof.
  intros u c. unfold lookup2, in_class. rewrite lookup_split_node.
  destruct (existsb (Z.eqb u) (nodup Z.eq_dec (map (fun ct => bucket s (fst ct)) l))) eqn:Hex;
    [apply (lookup_filter_fst (fun c => bucket s c =? u))|].
  (* no partition at u: a coordinate that l holds has another bucket *)
  destruct (Z.eqb_spec (bucket s c) u) as [<-|_]; [|reflexivity].
  destruct (lookup c l) as [t|] eqn:El; [exfalso|reflexivity].
  assert (Hin : In (bucket s c) (nodup Z.eq_dec (map (fun ct => bucket s (fst ct)) l)))
    by (apply nodup_In, (in_map (fun ct => bucket s (fst ct)) l (c, t)), lookup_some_in, El).
  apply (existsb_false_In _ _ _ Hex) in Hin. rewrite Z.eqb_refl in Hin. discriminate.
Qed.

Lemma nlookup_split_at : forall d s t pre u c post, List.length pre = d ->
  nlookup (pre ++ u :: c :: post) (split_at d s t) = if u =? bucket s c then nlookup (pre ++ c :: post) t else None.
Proof.
  induction d as [|d IH]; intros s t pre u c post Hlen.
  - destruct pre; [|discriminate]. cbn [app]. destruct t as [v|l]; [cbn; destruct (u =? bucket s c); reflexivity|].
    cbn [split_at]. rewrite (nlookup_cut _ l _ u c post (split_node_cut s l)). unfold in_class. rewrite Z.eqb_sym. reflexivity.
  - destruct pre as [|x pre]; [discriminate|]. injection Hlen as Hlen. cbn [app].
    destruct t as [v|l]; [cbn; destruct (u =? bucket s c); reflexivity|].
    cbn [split_at nlookup]. rewrite lookup_map_snd. destruct (lookup x l) as [t'|]; cbn [option_map].
    + apply IH. exact Hlen.
    + destruct (u =? bucket s c); reflexivity.
Qed.

Lemma split_ranks_app r1 r0 pre r post :
  split_ranks (List.length pre) r1 r0 (pre ++ r :: post) = pre ++ r1 :: r0 :: post.
Proof. induction pre as [|x pre IH]; [reflexivity|]. cbn [List.length app split_ranks]. rewrite IH. reflexivity. Qed.

(* both denotations are lookups along the coordinates of the point (den_nlookup), related by nlookup_split_at *)
Lemma den_split_at : forall d rs t p r r1 r0 s,
  nth_error rs d = Some r -> NoDup rs ->
  den (split_ranks d r1 r0 rs) (split_at d s t) p =
  if consistent r1 r0 s p then den rs t (collapse r r0 p) else 0.
Proof.
  intros d rs t p r r1 r0 s Hnth Hnd. apply nth_error_split in Hnth as (pre & post & -> & <-).
  apply NoDup_remove_2 in Hnd.
  rewrite !den_nlookup, split_ranks_app, !map_app. cbn [map].
  rewrite (nlookup_split_at _ s t (map p pre) (p r1) (p r0) (map p post)) by apply map_length.
  rewrite collapse_eq, !(map_collapse_notin r) by (intros H; apply Hnd, in_or_app; auto).
  unfold consistent. destruct (p r1 =? bucket s (p r0)); reflexivity.
Qed.

Lemma index_of_spec r rs : match index_of r rs with Some d => nth_error rs d = Some r | None => ~ In r rs end.
Proof.
  induction rs as [|x rs IH]; [intros []|]. cbn [index_of]. destruct (String.eqb_spec x r) as [->|Hne]; [reflexivity|].
  destruct (index_of r rs) as [d|]; [exact IH|]. intros [E|Hin]; [exact (Hne E)|exact (IH Hin)].
Qed.

Lemma index_of_nth r rs d : index_of r rs = Some d -> nth_error rs d = Some r.
Proof. intros E. pose proof (index_of_spec r rs) as H. rewrite E in H. exact H. Qed.
Lemma index_of_none r rs : index_of r rs = None -> ~ In r rs.
Proof. intros E. pose proof (index_of_spec r rs) as H. rewrite E in H. exact H. Qed.

Lemma holds_iff r t : holds r t = true <-> In r (rem t).
Proof.
  unfold holds. pose proof (index_of_spec r (rem t)) as H. destruct (index_of r (rem t)) as [d|].
  - split; [intros _; apply (nth_error_In _ d H)|reflexivity].
  - split; [discriminate|intros Hin; destruct (H Hin)].
Qed.

Lemma den_part_tstate r r1 r0 s t p : NoDup (rem t) ->
  den (rem (part_tstate r r1 r0 s t)) (cur (part_tstate r r1 r0 s t)) p =
  if holds r t then (if consistent r1 r0 s p then den (rem t) (cur t) (collapse r r0 p) else 0)
  else den (rem t) (cur t) (collapse r r0 p).
Proof.
  intros Hnd. unfold part_tstate, holds. destruct (index_of r (rem t)) as [d|] eqn:E; cbn [rem cur].
  - apply den_split_at; [apply index_of_nth; exact E|exact Hnd].
  - unfold collapse. symmetry. apply den_upd_notin. apply index_of_none. exact E.
Qed.

Lemma term_den_part r r1 r0 s tm p : (forall t, In t tm -> NoDup (rem t)) ->
  term_den (map (part_tstate r r1 r0 s) tm) p =
  if existsb (holds r) tm then (if consistent r1 r0 s p then term_den tm (collapse r r0 p) else 0)
  else term_den tm (collapse r r0 p).
Proof. intros Hnd. apply term_den_guard. intros t Ht. apply den_part_tstate, Hnd, Ht. Qed.

(* every term of a well-formed Einsum body holds the partitioned rank *)
Theorem body_den_part : forall r r1 r0 s tms p,
  (forall tm t, In tm tms -> In t tm -> NoDup (rem t)) -> (forall tm, In tm tms -> existsb (holds r) tm = true) ->
  body_den (part_terms r r1 r0 s tms) p = if consistent r1 r0 s p then body_den tms (collapse r r0 p) else 0.
Proof.
  intros r r1 r0 s tms p Hnd Hh. apply body_den_guard. intros tm Htm.
  rewrite (term_den_part r r1 r0 s tm p (fun t => Hnd tm t Htm)), (Hh tm Htm). reflexivity.
Qed.

Theorem partitioned_nest_sound : forall r r1 r0 s tms L',
  (forall tm t, In tm tms -> In t tm -> NoDup (rem t)) -> (forall tm, In tm tms -> existsb (holds r) tm = true) ->
  wf L' (part_terms r r1 r0 s tms) ->
  forall p, sum_at p (run L' (part_terms r r1 r0 s tms)) = if consistent r1 r0 s p then body_den tms (collapse r r0 p) else 0.
Proof.
  intros r r1 r0 s tms L' Hnd Hh Hwf p. rewrite (nest_sound L' _ Hwf p). apply body_den_part; assumption.
Qed.

(* the lower coordinate of a consistent point determines the upper one: an original point is represented once *)
Theorem consistent_unique : forall r1 r0 s (p : point) u, 0 < s ->
  consistent r1 r0 s (upd p r1 u) = true -> r1 <> r0 -> u = bucket s (p r0).
Proof.
  intros r1 r0 s p u Hs H Hne. unfold consistent, upd in H. rewrite String.eqb_refl in H.
  destruct (String.eqb_spec r0 r1) as [E|_]; [congruence|]. apply Z.eqb_eq in H. exact H.
Qed.

(* non-vacuity: Z[m] = A[k,m]*B[k] with K split by 2, loop order [K1; K0; M]; A[3,1]*B[3] = 55 at the point K1=2, K0=3, M=1 *)
Example partitioned_nest_example :
  let tms := [[{| rem := ["K"; "M"]%string; cur := Node [(0, Node [(0, Leaf 2)]); (3, Node [(1, Leaf 5)])] |};
               {| rem := ["K"]%string; cur := Node [(0, Leaf 7); (3, Leaf 11)] |}]] in
  swf ["K1"; "K0"; "M"]%string (map (map rem) (part_terms "K"%string "K1"%string "K0"%string 2 tms)) = true /\
  sum_at (fun x => if String.eqb x "K1"%string then 2 else if String.eqb x "K0"%string then 3 else if String.eqb x "M"%string then 1 else 0)
         (run ["K1"; "K0"; "M"]%string (part_terms "K"%string "K1"%string "K0"%string 2 tms)) = 55.
Proof. split; vm_compute; reflexivity. Qed.

Lemma rem_part_tstate r r1 r0 s t : holds r t = true ->
  exists pre post, rem t = pre ++ r :: post /\ rem (part_tstate r r1 r0 s t) = pre ++ r1 :: r0 :: post.
Proof.
  unfold holds, part_tstate. destruct (index_of r (rem t)) as [d|] eqn:E; [intros _|discriminate].
  apply index_of_nth, nth_error_split in E as (pre & post & E & <-). exists pre, post.
  split; [exact E|]. cbn [rem]. rewrite E. apply split_ranks_app.
Qed.

Lemma part_tstate_other r r1 r0 s t : holds r t = false -> part_tstate r r1 r0 s t = t.
Proof. unfold holds, part_tstate. destruct (index_of r (rem t)); [discriminate|reflexivity]. Qed.

Lemma part_tstate_NoDup r r1 r0 s t : NoDup (rem t) -> ~ In r1 (rem t) -> ~ In r0 (rem t) -> r1 <> r0 ->
  NoDup (rem (part_tstate r r1 r0 s t)).
Proof.
  intros Hnd H1 H0 Hne. destruct (holds r t) eqn:Hh; [|rewrite (part_tstate_other r r1 r0 s t Hh); exact Hnd].
  destruct (rem_part_tstate r r1 r0 s t Hh) as (pre & post & E & ->). rewrite E in *.
  assert (Hin : forall x, In x (pre ++ post) -> In x (pre ++ r :: post))
    by (intros x H; apply in_app_or in H as [H|H]; apply in_or_app; [left|right; right]; exact H).
  (* take r out, put r0 in, then r1 *)
  apply NoDup_remove_1 in Hnd. apply (NoDup_Add (Add_app r1 pre (r0 :: post))). split.
  - apply (NoDup_Add (Add_app r0 pre post)). split; [exact Hnd|]. intros H. exact (H0 (Hin _ H)).
  - intros H. apply in_app_or in H as [H|[H|H]]; [|exact (Hne (eq_sym H))|]; apply H1, Hin, in_or_app; [left|right]; exact H.
Qed.

Lemma holds_part_r0 r r1 r0 s t : holds r t = true -> holds r0 (part_tstate r r1 r0 s t) = true.
Proof.
  intros Hh. destruct (rem_part_tstate r r1 r0 s t Hh) as (pre & post & _ & E).
  apply holds_iff. rewrite E. apply in_or_app. right. right. left. reflexivity.
Qed.

Lemma part_terms_NoDup r r1 r0 s tms : r1 <> r0 ->
  (forall tm t, In tm tms -> In t tm -> NoDup (rem t) /\ ~ In r1 (rem t) /\ ~ In r0 (rem t)) ->
  forall tm t, In tm (part_terms r r1 r0 s tms) -> In t tm -> NoDup (rem t).
Proof.
  intros Hne Hfresh tm t Htm Ht. apply in_map_iff in Htm as [tm0 [<- Htm0]]. apply in_map_iff in Ht as [t0 [<- Ht0]].
  destruct (Hfresh tm0 t0 Htm0 Ht0) as (Hn & H1 & H0). apply part_tstate_NoDup; assumption.
Qed.

Lemma part_terms_holds r r1 r0 s tms : (forall tm, In tm tms -> existsb (holds r) tm = true) ->
  forall tm, In tm (part_terms r r1 r0 s tms) -> existsb (holds r0) tm = true.
Proof.
  intros Hh tm Htm. apply in_map_iff in Htm as [tm0 [<- Htm0]].
  pose proof (Hh tm0 Htm0) as H. apply existsb_exists in H as [t0 [Ht0 Hht0]]. apply existsb_exists.
  exists (part_tstate r r1 r0 s t0). split; [apply in_map; exact Ht0|apply holds_part_r0; exact Hht0].
Qed.

(* two levels on one rank: r split by s2 into (r2, rx), then rx split by s1 into (r1, r0) - e.g. K: [uniform_shape(s2),
   uniform_shape(s1)] gives K2, K1, K0.  Any loop order L' over the levels. *)
Theorem partitioned_nest_sound_2 : forall r r2 rx r1 r0 s2 s1 tms L',
  (forall tm t, In tm tms -> In t tm -> NoDup (rem t) /\ ~ In r2 (rem t) /\ ~ In rx (rem t)) ->
  r2 <> rx ->
  (forall tm, In tm tms -> existsb (holds r) tm = true) ->
  let tms1 := part_terms r r2 rx s2 tms in
  wf L' (part_terms rx r1 r0 s1 tms1) ->
  forall p, sum_at p (run L' (part_terms rx r1 r0 s1 tms1)) =
            if consistent r1 r0 s1 p && consistent r2 rx s2 (collapse rx r0 p)
            then body_den tms (collapse r rx (collapse rx r0 p)) else 0.
Proof.
  intros r r2 rx r1 r0 s2 s1 tms L' Hfresh Hne Hh tms1 Hwf p.
  rewrite (partitioned_nest_sound rx r1 r0 s1 tms1 L' (part_terms_NoDup r r2 rx s2 tms Hne Hfresh)
                                  (part_terms_holds r r2 rx s2 tms Hh) Hwf p).
  destruct (consistent r1 r0 s1 p); cbn [andb]; [|reflexivity].
  apply body_den_part; [|exact Hh]. intros tm t Htm Ht. apply (Hfresh tm t Htm Ht).
Qed.
