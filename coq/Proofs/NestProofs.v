(* C01: a well-formed nest computes the sum of products at every point (nest_sound), and the validators of an emitted
   nest are sound for it.  The facts about tries, denotations and sums of contributions proved on the way are also what
   NestTakeProofs, NestPartProofs and NestOccProofs build on. *)
From Coq Require Import ZArith List Bool Lia String.
Require Import TV.Proofs.ListFacts TV.Model.Nest.
Import ListNotations.
Open Scope Z_scope.

(* term_den, body_den, term_leaf and their NestTake twins are all of the form fold_right (fun x a => op (f x) a) e *)
Lemma fold_map_ext {A B C} (op : C -> C -> C) e (f : B -> C) (g : A -> C) (h : A -> B) l :
  (forall x, In x l -> f (h x) = g x) ->
  fold_right (fun y a => op (f y) a) e (map h l) = fold_right (fun x a => op (g x) a) e l.
Proof.
  induction l as [|x l IH]; intros H; [reflexivity|]. cbn [map fold_right].
  rewrite (H x (or_introl eq_refl)), IH; [reflexivity|]. intros y Hy. apply H. right. exact Hy.
Qed.

Lemma fold_ext {A C} (op : C -> C -> C) e (f g : A -> C) l :
  (forall x, In x l -> f x = g x) ->
  fold_right (fun x a => op (f x) a) e l = fold_right (fun x a => op (g x) a) e l.
Proof. intros H. rewrite <- (map_id l) at 1. apply (fold_map_ext op e f g (fun x => x)), H. Qed.

Lemma sum_zero {A} (f : A -> Z) l : (forall x, In x l -> f x = 0) -> fold_right (fun x a => f x + a) 0 l = 0.
Proof.
  induction l as [|x l IH]; intros H; [reflexivity|]. cbn [fold_right].
  rewrite (H x (or_introl eq_refl)), IH; [reflexivity|]. intros y Hy. apply H. right. exact Hy.
Qed.

Lemma prod_zero {A} (f : A -> Z) l x : In x l -> f x = 0 -> fold_right (fun y a => f y * a) 1 l = 0.
Proof.
  induction l as [|y l IH]; [intros []|]. intros [->|Hin] Hz; cbn [fold_right].
  - rewrite Hz. apply Z.mul_0_l.
  - rewrite (IH Hin Hz). apply Z.mul_0_r.
Qed.

Lemma lookup_some_in c l (t : trie) : lookup c l = Some t -> In (c, t) l.
Proof.
  induction l as [|[c' t'] l IH]; [discriminate|]. cbn [lookup]. destruct (Z.eqb_spec c c') as [->|_].
  - intros E. injection E as ->. left. reflexivity.
  - intros E. right. exact (IH E).
Qed.

Lemma lookup_in_keys : forall c l t, lookup c l = Some t -> In c (keys l).
Proof. intros c l t H. exact (in_map fst l (c, t) (lookup_some_in c l t H)). Qed.

Lemma lookup_filter_fst (f : Z -> bool) c l :
  lookup c (filter (fun ct : coord * trie => f (fst ct)) l) = if f c then lookup c l else None.
Proof.
  induction l as [|[c' t'] l IH]; cbn [filter lookup fst]; [destruct (f c); reflexivity|].
  destruct (f c') eqn:E'.
  - cbn [lookup]. destruct (Z.eqb_spec c c') as [->|Hne]; [rewrite E'; reflexivity|exact IH].
  - rewrite IH. destruct (Z.eqb_spec c c') as [->|Hne]; [rewrite E'; reflexivity|reflexivity].
Qed.

Lemma lookup_map_snd (g : trie -> trie) x l :
  lookup x (map (fun ct => (fst ct, g (snd ct))) l) = option_map g (lookup x l).
Proof. induction l as [|[c t] l IH]; [reflexivity|]. cbn [map lookup fst snd]. destruct (x =? c); [reflexivity|exact IH]. Qed.

Fixpoint nlookup (zs : list Z) (t : trie) : option Z :=
  match zs, t with
  | [], Leaf v => Some v
  | c :: zs', Node l => match lookup c l with Some t' => nlookup zs' t' | None => None end
  | _, _ => None
  end.

Lemma den_nlookup : forall rs t p, den rs t p = match nlookup (map p rs) t with Some v => v | None => 0 end.
Proof.
  induction rs as [|r rs IH]; intros [v|l] p; cbn [den map nlookup]; try reflexivity.
  destruct (lookup (p r) l); [apply IH|reflexivity].
Qed.

Lemma term_den_cons t tm p : term_den (t :: tm) p = den (rem t) (cur t) p * term_den tm p.
Proof. reflexivity. Qed.
Lemma body_den_cons tm tms p : body_den (tm :: tms) p = term_den tm p + body_den tms p.
Proof. reflexivity. Qed.
Lemma body_den_single tm p : body_den [tm] p = term_den tm p.
Proof. apply Z.add_0_r. Qed.

Lemma term_den_zero tm p t : In t tm -> den (rem t) (cur t) p = 0 -> term_den tm p = 0.
Proof. exact (prod_zero (fun t => den (rem t) (cur t) p) tm t). Qed.

Lemma upd_eq p r c : upd p r c r = c.
Proof. unfold upd. rewrite String.eqb_refl. reflexivity. Qed.
Lemma upd_neq p r c x : x <> r -> upd p r c x = p x.
Proof. intros H. unfold upd. apply String.eqb_neq in H. rewrite H. reflexivity. Qed.

Lemma den_ext : forall rs t p q, (forall x, In x rs -> p x = q x) -> den rs t p = den rs t q.
Proof.
  induction rs as [|r rs IH]; intros t p q H; destruct t as [v|l]; cbn [den]; try reflexivity.
  rewrite (H r (or_introl eq_refl)). destruct (lookup (q r) l); [|reflexivity].
  apply IH. intros x Hx. apply H. right. exact Hx.
Qed.

Lemma den_upd_notin : forall rs t p r x, ~ In r rs -> den rs t (upd p r x) = den rs t p.
Proof. intros rs t p r x Hn. apply den_ext. intros y Hy. apply upd_neq. intros ->. exact (Hn Hy). Qed.

Lemma term_den_ext tm p q : (forall t x, In t tm -> In x (rem t) -> p x = q x) -> term_den tm p = term_den tm q.
Proof. intros H. apply fold_ext. intros t Ht. apply den_ext. intros x Hx. exact (H t x Ht Hx). Qed.

Lemma den_default : forall rs p, den rs (default_of rs) p = 0.
Proof. intros [|r rs] p; reflexivity. Qed.

Lemma den_bottom t p : rem t = [] -> den (rem t) (cur t) p = leaf_val t.
Proof. intros E. rewrite E. unfold leaf_val. destruct (cur t); reflexivity. Qed.

Lemma participates_heads r t : participates r t = heads r (rem t).
Proof. reflexivity. Qed.

Lemma participates_inv r t : participates r t = true -> exists rs, rem t = r :: rs.
Proof.
  unfold participates. destruct (rem t) as [|r' rs]; [discriminate|]. intros E. apply String.eqb_eq in E as ->. eauto.
Qed.

Lemma participates_cons r rs t : rem t = r :: rs -> participates r t = true.
Proof. intros E. unfold participates. rewrite E. apply String.eqb_refl. Qed.

Lemma advance_spec r c t : participates r t = true -> has_coord c t = true ->
  exists rs l t', t = {| rem := r :: rs; cur := Node l |} /\ lookup c l = Some t' /\ advance c t = {| rem := rs; cur := t' |}.
Proof.
  intros Hp. destruct (participates_inv r t Hp) as [rs E]. destruct t as [rs0 cu]. cbn [rem] in E. subst rs0.
  unfold has_coord, advance; cbn [rem cur]. destruct cu as [v|l]; [discriminate|].
  destruct (lookup c l) as [t'|] eqn:El; [|discriminate]. intros _. exists rs, l, t'. auto.
Qed.

Lemma kill_spec r t : participates r t = true ->
  exists rs, rem t = r :: rs /\ kill t = {| rem := rs; cur := default_of rs |}.
Proof. intros Hp. destruct (participates_inv r t Hp) as [rs E]. exists rs. unfold kill. rewrite E. auto. Qed.

Lemma den_advance : forall r c t p, p r = c -> participates r t = true -> has_coord c t = true ->
  den (rem (advance c t)) (cur (advance c t)) p = den (rem t) (cur t) p.
Proof.
  intros r c t p Hp Hpart Hc. destruct (advance_spec r c t Hpart Hc) as (rs & l & t' & -> & E & ->).
  cbn [rem cur den]. rewrite Hp, E. reflexivity.
Qed.

Lemma den_dead : forall r c t p, p r = c -> participates r t = true -> has_coord c t = false ->
  den (rem t) (cur t) p = 0.
Proof.
  intros r c t p Hp Hpart Hc. destruct (participates_inv r t Hpart) as [rs ->]. unfold has_coord in Hc.
  destruct (cur t) as [v|l]; [reflexivity|]. cbn [den]. rewrite Hp. destruct (lookup c l); [discriminate|reflexivity].
Qed.

Lemma den_kill : forall r t p, participates r t = true -> den (rem (kill t)) (cur (kill t)) p = 0.
Proof. intros r t p Hpart. destruct (kill_spec r t Hpart) as (rs & _ & ->). apply den_default. Qed.

Lemma rem_advance c t : rem (advance c t) = tl (rem t).
Proof.
  unfold advance. destruct (rem t) as [|x rs] eqn:E; [exact E|].
  destruct (cur t) as [v|l]; [reflexivity|]. destruct (lookup c l); reflexivity.
Qed.

Lemma rem_kill t : rem (kill t) = tl (rem t).
Proof. unfold kill. destruct (rem t) eqn:E; [exact E|reflexivity]. Qed.

Definition stepf (r : rank) (c : coord) (t : tstate) : tstate := if participates r t then advance c t else t.
Definition killf (r : rank) (t : tstate) : tstate := if participates r t then kill t else t.

Lemma stepf_part r c t : participates r t = true -> stepf r c t = advance c t.
Proof. intros H. unfold stepf. rewrite H. reflexivity. Qed.
Lemma killf_part r t : participates r t = true -> killf r t = kill t.
Proof. intros H. unfold killf. rewrite H. reflexivity. Qed.
Lemma stepf_other r c t : participates r t = false -> stepf r c t = t.
Proof. intros H. unfold stepf. rewrite H. reflexivity. Qed.
Lemma killf_other r t : participates r t = false -> killf r t = t.
Proof. intros H. unfold killf. rewrite H. reflexivity. Qed.

Lemma step_term_alive r c tm : term_alive r c tm = true -> step_term r c tm = map (stepf r c) tm.
Proof. intros H. unfold step_term. rewrite H. reflexivity. Qed.
Lemma step_term_dead r c tm : term_alive r c tm = false -> step_term r c tm = map (killf r) tm.
Proof. intros H. unfold step_term. rewrite H. reflexivity. Qed.

Lemma alive_has_coord r c tm t : term_alive r c tm = true -> In t tm -> participates r t = true -> has_coord c t = true.
Proof.
  intros Hal Hin Hp. unfold term_alive in Hal. rewrite forallb_forall in Hal. specialize (Hal t Hin).
  rewrite Hp in Hal. exact Hal.
Qed.

Lemma alive_den_pres r c tm p t : p r = c -> term_alive r c tm = true -> In t tm ->
  den (rem (stepf r c t)) (cur (stepf r c t)) p = den (rem t) (cur t) p.
Proof.
  intros Hp Hal Hin. destruct (participates r t) eqn:E; [|rewrite (stepf_other r c t E); reflexivity].
  rewrite (stepf_part r c t E). apply (den_advance r c t p Hp E). eapply alive_has_coord; eassumption.
Qed.

Lemma term_dead_witness : forall r c tm, term_alive r c tm = false ->
  exists t, In t tm /\ participates r t = true /\ has_coord c t = false.
Proof.
  intros r c tm H. apply forallb_false_ex in H as (t & Hin & H). exists t. split; [exact Hin|].
  apply orb_false_iff in H as [H1 H2]. apply negb_false_iff in H1. auto.
Qed.

Lemma term_den_dead r c tm p : p r = c -> term_alive r c tm = false -> term_den tm p = 0.
Proof.
  intros Hp Hal. destruct (term_dead_witness r c tm Hal) as (t & Hin & Hpart & Hno).
  exact (term_den_zero tm p t Hin (den_dead r c t p Hp Hpart Hno)).
Qed.

(* alive: every operand keeps its value; dead: the term was 0 and a killed participant keeps it 0 *)
Lemma term_den_step : forall r c tm p, p r = c -> term_den (step_term r c tm) p = term_den tm p.
Proof.
  intros r c tm p Hp. destruct (term_alive r c tm) eqn:Hal.
  - rewrite (step_term_alive r c tm Hal). apply fold_map_ext. intros t Hin. apply (alive_den_pres r c tm p t Hp Hal Hin).
  - rewrite (step_term_dead r c tm Hal), (term_den_dead r c tm p Hp Hal).
    destruct (term_dead_witness r c tm Hal) as (t & Hin & Hpart & _).
    apply (term_den_zero _ p (killf r t)); [apply in_map; exact Hin|].
    rewrite (killf_part r t Hpart). apply (den_kill r t p Hpart).
Qed.

Lemma body_den_step : forall r c tms p, p r = c -> body_den (map (step_term r c) tms) p = body_den tms p.
Proof. intros r c tms p Hp. apply fold_map_ext. intros tm _. apply term_den_step. exact Hp. Qed.

Lemma body_den_all_dead : forall r c tms p, p r = c -> existsb (term_alive r c) tms = false -> body_den tms p = 0.
Proof.
  intros r c tms p Hp H. apply sum_zero. intros tm Htm.
  apply (term_den_dead r c tm p Hp). apply (existsb_false_In _ tms); assumption.
Qed.

Lemma term_leaf_prod tm : term_leaf tm = fold_right (fun t a => leaf_val t * a) 1 tm.
Proof.
  induction tm as [|t tm IH]; [reflexivity|]. cbn [fold_right]. rewrite <- IH.
  unfold leaf_val. cbn [term_leaf fold_right]. destruct (cur t); reflexivity.
Qed.

Lemma term_leaf_den : forall tm p, (forall t, In t tm -> rem t = []) -> term_den tm p = term_leaf tm.
Proof. intros tm p H. rewrite term_leaf_prod. apply fold_ext. intros t Ht. apply den_bottom, H, Ht. Qed.

Lemma term_den_guard (T : tstate -> tstate) (H : tstate -> bool) (C : bool) tm p q :
  (forall t, In t tm -> den (rem (T t)) (cur (T t)) p =
                        if H t then (if C then den (rem t) (cur t) q else 0) else den (rem t) (cur t) q) ->
  term_den (map T tm) p = if existsb H tm then (if C then term_den tm q else 0) else term_den tm q.
Proof.
  induction tm as [|t tm IH]; intros E; [reflexivity|].
  cbn [map existsb]. rewrite !term_den_cons, IH, (E t (or_introl eq_refl)) by (intros t' H'; apply E; right; exact H').
  destruct (H t), (existsb H tm), C; cbn [orb]; lia.
Qed.

Lemma body_den_guard (T : tstate -> tstate) (C : bool) tms p q :
  (forall tm, In tm tms -> term_den (map T tm) p = if C then term_den tm q else 0) ->
  body_den (map (map T) tms) p = if C then body_den tms q else 0.
Proof.
  intros E. transitivity (fold_right (fun tm a => (if C then term_den tm q else 0) + a) 0 tms).
  - apply fold_map_ext. exact E.
  - destruct C; [reflexivity|]. apply sum_zero. reflexivity.
Qed.

Lemma sum_at_leaf p z : sum_at p [([], z)] = z.
Proof. cbn. lia. Qed.

Lemma sum_at_app : forall p a b, sum_at p (a ++ b) = sum_at p a + sum_at p b.
Proof. intros p a b; induction a as [|x a IH]; cbn [app sum_at]; [reflexivity|]. destruct (matches p (fst x)); lia. Qed.

Lemma sum_at_cons_level : forall p r c cs,
  sum_at p (map (fun qv => ((r, c) :: fst qv, snd qv)) cs) = if Z.eqb (p r) c then sum_at p cs else 0.
Proof.
  intros p r c cs. induction cs as [|x cs IH]; cbn [map sum_at]; [destruct (p r =? c); reflexivity|].
  rewrite IH. cbn [fst snd matches forallb]. destruct (p r =? c); reflexivity.
Qed.

Lemma sum_at_flat_map : forall p r (f : coord -> list contrib) cs, NoDup cs ->
  sum_at p (flat_map (fun c => map (fun qv => ((r, c) :: fst qv, snd qv)) (f c)) cs)
  = if in_dec Z.eq_dec (p r) cs then sum_at p (f (p r)) else 0.
Proof.
  intros p r f cs Hnd. induction Hnd as [|c cs Hnotin Hnd IH]; [reflexivity|].
  cbn [flat_map]. rewrite sum_at_app, sum_at_cons_level, IH.
  destruct (Z.eqb_spec (p r) c) as [->|Hne].
  - destruct (in_dec Z.eq_dec c cs) as [Hin|_]; [contradiction|].
    destruct (in_dec Z.eq_dec c (c :: cs)) as [_|Hn]; [lia|exfalso; apply Hn; left; reflexivity].
  - destruct (in_dec Z.eq_dec (p r) cs) as [Hin|Hn];
    destruct (in_dec Z.eq_dec (p r) (c :: cs)) as [Hin'|Hn']; try lia.
    + exfalso; apply Hn'; right; assumption.
    + destruct Hin' as [->|Hin']; contradiction.
Qed.

Lemma keys_flat_map_nodup r (f : coord -> list contrib) cs : NoDup cs -> (forall c, NoDup (map fst (f c))) ->
  NoDup (map fst (flat_map (fun c => map (fun qv => ((r, c) :: fst qv, snd qv)) (f c)) cs)).
Proof.
  intros Hnd Hf. rewrite flat_map_concat_map, concat_map, map_map, <- flat_map_concat_map.
  assert (E : forall c, map fst (map (fun qv : contrib => ((r, c) :: fst qv, snd qv)) (f c)) = map (cons (r, c)) (map fst (f c)))
    by (intros c; rewrite !map_map; reflexivity).
  apply NoDup_flat_map; [exact Hnd| |].
  - intros c _. rewrite E. apply NoDup_map_inj_in; [|apply Hf]. intros x y _ _ Exy. injection Exy as ->. reflexivity.
  - intros c c' key _ _ H1 H2. rewrite E in H1, H2.
    apply in_map_iff in H1 as [q1 [<- _]]. apply in_map_iff in H2 as [q2 [E2 _]]. injection E2 as -> _. reflexivity.
Qed.

Lemma has_coord_tkeys c t : has_coord c t = true -> In c (tkeys t).
Proof.
  unfold has_coord, tkeys. destruct (cur t) as [v|l]; [discriminate|].
  destruct (lookup c l) eqn:E; [|discriminate]. intros _. exact (lookup_in_keys c l _ E).
Qed.

Lemma term_coords_spec r tm c : (exists t, In t tm /\ participates r t = true) ->
  In c (term_coords r tm) <-> term_alive r c tm = true.
Proof.
  intros (t0 & Hin0 & Hp0). unfold term_coords. destruct (filter (participates r) tm) as [|t ts] eqn:E.
  - assert (H : In t0 (filter (participates r) tm)) by (apply filter_In; auto). rewrite E in H. destruct H.
  - assert (Ht : In t (filter (participates r) tm)) by (rewrite E; left; reflexivity).
    apply filter_In in Ht as [Htin Htp]. rewrite filter_In. split; [tauto|]. intros Hal. split; [|exact Hal].
    apply has_coord_tkeys. apply (alive_has_coord r c tm t Hal Htin Htp).
Qed.

Lemma visited_spec : forall r tms, (forall tm, In tm tms -> exists t, In t tm /\ participates r t = true) ->
  forall c, In c (visited r tms) <-> existsb (term_alive r c) tms = true.
Proof.
  intros r tms Hpart c. unfold visited. rewrite nodup_In, in_flat_map, existsb_exists.
  split; intros (tm & Hin & H); exists tm; (split; [exact Hin|]); apply (term_coords_spec r tm c (Hpart tm Hin)); exact H.
Qed.

Lemma not_visited_dead r tms c : (forall tm, In tm tms -> exists t, In t tm /\ participates r t = true) ->
  ~ In c (visited r tms) -> existsb (term_alive r c) tms = false.
Proof. intros Hpart Hn. apply not_true_is_false. intros E. apply Hn, visited_spec; assumption. Qed.

(* `run`, NestTake's `runS` and NestOcc's `run_k` are one recursion over the loop order on different states.
   A state shows its terms (they fix the coordinates a level visits), is stepped at a coordinate, and is turned into
   contributions at the bottom. *)
Section Nest.
  Context {S : Type} (terms : S -> list term) (step : rank -> coord -> S -> S) (k : S -> list contrib).

  Fixpoint nest (L : list rank) (s : S) : list contrib :=
    match L with
    | [] => k s
    | r :: L' => flat_map (fun c => map (fun qv => ((r, c) :: fst qv, snd qv)) (nest L' (step r c s))) (visited r (terms s))
    end.

  Lemma nest_keys_ranks Li : (forall s qv, In qv (k s) -> map fst (fst qv) = Li) ->
    forall L s qv, In qv (nest L s) -> map fst (fst qv) = L ++ Li.
  Proof.
    intros Hk. induction L as [|r L IH]; intros s qv H; cbn [nest] in H; [exact (Hk s qv H)|].
    apply in_flat_map in H as [c [_ H]]. apply in_map_iff in H as [qv' [<- H]].
    cbn [fst map app]. f_equal. exact (IH _ _ H).
  Qed.

  Lemma nest_keys_nodup : (forall s, NoDup (map fst (k s))) -> forall L s, NoDup (map fst (nest L s)).
  Proof.
    intros Hk. induction L as [|r L IH]; intros s; cbn [nest]; [apply Hk|].
    apply keys_flat_map_nodup; [apply NoDup_nodup|]. intros c. apply IH.
  Qed.

  (* The invariant I need only survive the steps the nest takes: those at coordinates where some term is alive. *)
  Variables (I : list rank -> S -> Prop) (D : S -> point -> Z).
  Hypothesis terms_step : forall r c s, terms (step r c s) = map (step_term r c) (terms s).
  Hypothesis I_step : forall r L c s, I (r :: L) s -> existsb (term_alive r c) (terms s) = true -> I L (step r c s).
  Hypothesis D_step : forall r c s p, p r = c -> D (step r c s) p = D s p.
  Hypothesis D_dead : forall r c s p, p r = c -> existsb (term_alive r c) (terms s) = false -> D s p = 0.
  Hypothesis D_bottom : forall s p, I [] s -> wf [] (terms s) -> sum_at p (k s) = D s p.

  Theorem nest_sum : forall L s, wf L (terms s) -> I L s -> forall p, sum_at p (nest L s) = D s p.
  Proof.
    induction L as [|r L IH]; intros s Hwf Hinv p; [apply D_bottom; assumption|].
    destruct Hwf as [Hpart Hwf]. cbn [nest]. rewrite sum_at_flat_map by apply NoDup_nodup.
    destruct (in_dec Z.eq_dec (p r) (visited r (terms s))) as [Hin|Hnin].
    - rewrite IH; [apply D_step; reflexivity|rewrite terms_step; apply Hwf|].
      apply I_step; [exact Hinv|apply (visited_spec r _ Hpart), Hin].
    - symmetry. apply (D_dead r (p r)); [reflexivity|apply not_visited_dead; assumption].
  Qed.
End Nest.

Lemma run_is_nest : run = nest (fun tms => tms) (fun r c => map (step_term r c))
                            (fun tms => [([], fold_right (fun tm acc => term_leaf tm + acc) 0 tms)]).
Proof. reflexivity. Qed.

Theorem nest_sound : forall L tms, wf L tms -> forall p, sum_at p (run L tms) = body_den tms p.
Proof.
  rewrite run_is_nest. intros L tms Hwf.
  apply (nest_sum _ _ _ (fun _ _ => True) body_den); trivial; [apply body_den_step|apply body_den_all_dead|].
  intros s p _ Hbot. rewrite sum_at_leaf. apply fold_ext. intros tm Htm. symmetry. apply term_leaf_den, Hbot, Htm.
Qed.

(* the static validator sees the rank structure only: stepping the terms steps their rank lists, whatever the tries *)
Lemma rems_step_term r c tm : map rem (step_term r c tm) = step_rems r (map rem tm).
Proof.
  unfold step_term, step_rems. destruct (term_alive r c tm); rewrite !map_map; apply map_ext; intros t;
    rewrite <- participates_heads; destruct (participates r t); try reflexivity.
  - apply rem_advance.
  - apply rem_kill.
Qed.

Lemma rems_step r c tms : map (map rem) (map (step_term r c) tms) = map (step_rems r) (map (map rem) tms).
Proof. rewrite !map_map. apply map_ext. intros tm. apply rems_step_term. Qed.

Lemma heads_participant r tm : existsb (heads r) (map rem tm) = true -> exists t, In t tm /\ participates r t = true.
Proof.
  intros H. apply existsb_exists in H as [rs [Hin Hh]]. apply in_map_iff in Hin as [t [<- Ht]].
  exists t. split; [exact Ht|exact Hh].
Qed.

Theorem swf_wf : forall L tms, swf L (map (map rem) tms) = true -> wf L tms.
Proof.
  induction L as [|r L IH]; intros tms H; cbn [swf wf] in *.
  - intros tm Htm t Ht. rewrite forallb_forall in H.
    specialize (H (map rem tm) (in_map _ _ _ Htm)). rewrite forallb_forall in H.
    specialize (H (rem t) (in_map _ _ _ Ht)). destruct (rem t); [reflexivity|discriminate].
  - apply andb_true_iff in H as [H1 H2]. split.
    + intros tm Htm. rewrite forallb_forall in H1. apply heads_participant, H1, in_map, Htm.
    + intros c. apply IH. rewrite rems_step. exact H2.
Qed.

Lemma nats_eqb_eq a b : nats_eqb a b = true <-> a = b.
Proof. apply (list_eqb_iff Nat.eqb); [apply Nat.eqb_eq|intros [|] [|]; reflexivity]. Qed.
Lemma natss_eqb_eq a b : natss_eqb a b = true <-> a = b.
Proof. apply (list_eqb_iff nats_eqb); [apply nats_eqb_eq|intros [|] [|]; reflexivity]. Qed.
Lemma views_eqb_eq a b : views_eqb a b = true -> a = b.
Proof.
  revert b; induction a as [|[r x] a IH]; intros [|[r' y] b] H; cbn in H; try discriminate; [reflexivity|].
  apply andb_true_iff in H as [H H3]. apply andb_true_iff in H as [H1 H2].
  apply String.eqb_eq in H1. apply natss_eqb_eq in H2. rewrite (IH b H3). congruence.
Qed.

Lemma nest_okb_wf L tms views : nest_okb L (map (map rem) tms) views = true -> wf L tms.
Proof. intros H. apply andb_true_iff in H as [H _]. apply swf_wf, H. Qed.

(* certified validation: if the validator accepts the rank structure and the per-level co-iteration read off an
   emitted program, then for ALL input tries with those rank orders the nest computes the sum of products at
   every point, and the text's co-iteration is exactly the one `run` performs *)
Theorem nest_okb_sound : forall L tms views,
  nest_okb L (map (map rem) tms) views = true ->
  views = expected_views L (map (map rem) tms) /\ forall p, sum_at p (run L tms) = body_den tms p.
Proof.
  intros L tms views H. split.
  - apply andb_true_iff in H as [_ H]. symmetry. apply views_eqb_eq, H.
  - apply nest_sound. apply (nest_okb_wf L tms views H).
Qed.


Lemma leaf_term_eval_shift t tm ps : leaf_term_eval (t :: tm) (map S ps) = leaf_term_eval tm ps.
Proof. apply (fold_map_ext Z.mul 1 (fun i => leaf_val (nth i (t :: tm) dummy_t))). reflexivity. Qed.

Lemma leaf_term_eval_all tm : leaf_term_eval tm (seq 0 (List.length tm)) = term_leaf tm.
Proof.
  rewrite term_leaf_prod. induction tm as [|t tm IH]; [reflexivity|].
  cbn [List.length seq]. rewrite <- seq_shift.
  change (leaf_term_eval (t :: tm) (0%nat :: map S (seq 0 (List.length tm)))) with
         (leaf_val t * leaf_term_eval (t :: tm) (map S (seq 0 (List.length tm)))).
  rewrite leaf_term_eval_shift, IH. reflexivity.
Qed.

Lemma leaf_okb_eval : forall lv tms, leaf_okb lv (map (@List.length _) tms) = true ->
  leaf_eval lv tms = fold_right (fun tm acc => term_leaf tm + acc) 0 tms.
Proof.
  induction lv as [|ps lv IH]; intros [|tm tms] H; cbn [map leaf_okb] in H; try discriminate; [reflexivity|].
  apply andb_true_iff in H as [H1 H2]. apply nats_eqb_eq in H1. subst ps.
  cbn [leaf_eval fold_right]. rewrite (IH tms H2), leaf_term_eval_all. reflexivity.
Qed.

Lemma length_step_term r c tm : List.length (step_term r c tm) = List.length tm.
Proof. unfold step_term. destruct (term_alive r c tm); apply map_length. Qed.

Lemma lengths_step r c (tms : list term) : map (@List.length _) (map (step_term r c) tms) = map (@List.length _) tms.
Proof. rewrite map_map. apply map_ext. intros tm. apply length_step_term. Qed.

Lemma lengths_rems (tms : list term) : map (@List.length _) (map (map rem) tms) = map (@List.length _) tms.
Proof. rewrite map_map. apply map_ext. intros tm. apply map_length. Qed.

Theorem run_lv_eq : forall lv L tms, leaf_okb lv (map (@List.length _) tms) = true -> run_lv lv L tms = run L tms.
Proof.
  intros lv L. induction L as [|r L IH]; intros tms H; cbn [run_lv run].
  - rewrite (leaf_okb_eval lv tms H). reflexivity.
  - apply flat_map_ext. intros c. rewrite IH; [reflexivity|]. rewrite lengths_step. exact H.
Qed.

Lemma rmem_in r rs : In r rs -> rmem r rs = true.
Proof. intros H. apply existsb_exists. exists r. split; [exact H|apply String.eqb_refl]. Qed.

Lemma matches_out_all : forall out o (a : list (rank * coord)),
  (forall r, In r (map fst a) -> rmem r out = true) -> matches_out out o a = true ->
  a = map (fun r => (r, o r)) (map fst a).
Proof.
  intros out o a. induction a as [|[r c] a IH]; intros Hall Ha; [reflexivity|].
  cbn [matches_out forallb fst snd] in Ha. apply andb_true_iff in Ha as [Ha1 Ha2].
  rewrite (Hall r (or_introl eq_refl)) in Ha1. apply Z.eqb_eq in Ha1 as <-.
  cbn [map fst]. f_equal. apply IH; [|exact Ha2]. intros r0 H0. apply Hall. right. exact H0.
Qed.

Lemma out_sum_none : forall out o cs, existsb (fun qv => matches_out out o (fst qv)) cs = false -> out_sum_at out o cs = 0.
Proof.
  intros out o cs. induction cs as [|qv cs IH]; intros H; [reflexivity|].
  cbn [existsb] in H. apply orb_false_iff in H as [H1 H2]. cbn [out_sum_at]. rewrite H1. apply IH. exact H2.
Qed.

(* if every loop rank is an output rank, every output point receives at most one contribution: assigning is accumulating *)
Lemma assign_eq_acc_keys : forall L out o cs, (forall r, In r L -> rmem r out = true) ->
  (forall qv, In qv cs -> map fst (fst qv) = L) -> NoDup (map fst cs) ->
  out_assign_at out o cs = out_sum_at out o cs.
Proof.
  intros L out o cs Hall. induction cs as [|qv cs IH]; intros Hk Hnd; [reflexivity|].
  cbn [map] in Hnd. apply NoDup_cons_iff in Hnd as [Hnotin Hnd].
  cbn [out_assign_at out_sum_at].
  specialize (IH (fun qv' H => Hk qv' (or_intror H)) Hnd).
  destruct (matches_out out o (fst qv)) eqn:Hm; cbn [andb]; [|exact IH].
  destruct (existsb (fun qv' => matches_out out o (fst qv')) cs) eqn:Hex.
  - exfalso. apply existsb_exists in Hex as [qv' [Hin Hm']]. apply Hnotin.
    assert (E : forall q, In q (qv :: cs) -> matches_out out o (fst q) = true -> fst q = map (fun r => (r, o r)) L).
    { intros q Hq Hmq. rewrite <- (Hk q Hq). apply (matches_out_all out o); [rewrite (Hk q Hq); exact Hall|exact Hmq]. }
    rewrite (E qv (or_introl eq_refl) Hm), <- (E qv' (or_intror Hin) Hm'). apply in_map. exact Hin.
  - cbn [negb]. rewrite (out_sum_none out o cs Hex). lia.
Qed.

Lemma nest_result_acc_keys acc L out o cs : op_okb acc L out = true ->
  (forall qv, In qv cs -> map fst (fst qv) = L) -> NoDup (map fst cs) ->
  nest_result acc out o cs = out_sum_at out o cs.
Proof.
  intros H Hk Hnd. unfold nest_result. destruct acc; [reflexivity|].
  apply (assign_eq_acc_keys L); try assumption. apply forallb_forall. exact H.
Qed.

Lemma leaf_keys_ranks z (qv : contrib) : In qv [([], z)] -> map fst (fst qv) = [].
Proof. intros [<-|[]]. reflexivity. Qed.

Lemma leaf_keys_nodup (z : Z) : NoDup (map fst [(@nil (rank * coord), z)]).
Proof. repeat constructor. intros []. Qed.

Lemma leaf_nest_result_acc {S} (terms : S -> list term) step (z : S -> Z) acc L out o s :
  op_okb acc L out = true ->
  nest_result acc out o (nest terms step (fun s => [([], z s)]) L s)
  = out_sum_at out o (nest terms step (fun s => [([], z s)]) L s).
Proof.
  intros H. apply (nest_result_acc_keys acc L); [exact H| |].
  - intros qv Hq. rewrite <- (app_nil_r L). revert Hq. apply nest_keys_ranks. intros s'. apply leaf_keys_ranks.
  - apply nest_keys_nodup. intros s'. apply leaf_keys_nodup.
Qed.

Lemma run_keys_ranks : forall L tms qv, In qv (run L tms) -> map fst (fst qv) = L.
Proof.
  rewrite run_is_nest. intros L tms qv. rewrite <- (app_nil_r L) at 2. apply nest_keys_ranks. intros s. apply leaf_keys_ranks.
Qed.

Lemma run_keys_nodup : forall L tms, NoDup (map fst (run L tms)).
Proof. rewrite run_is_nest. apply nest_keys_nodup. intros s. apply leaf_keys_nodup. Qed.

Theorem nest_result_acc : forall acc L out tms o, op_okb acc L out = true ->
  nest_result acc out o (run L tms) = out_sum_at out o (run L tms).
Proof. rewrite run_is_nest. intros acc L out tms o. apply leaf_nest_result_acc. Qed.

(* certified validation of a whole emitted sum-of-products program, update statement included *)
Theorem nest_full_okb_sound : forall L tms views acc lv out,
  nest_full_okb L (map (map rem) tms) views acc lv out = true ->
  views = expected_views L (map (map rem) tms) /\
  (forall o, nest_result acc out o (run_lv lv L tms) = out_sum_at out o (run L tms)) /\
  (forall p, sum_at p (run L tms) = body_den tms p).
Proof.
  intros L tms views acc lv out H. unfold nest_full_okb in H.
  apply andb_true_iff in H as [H H3]. apply andb_true_iff in H as [H1 H2].
  destruct (nest_okb_sound L tms views H1) as [Hv Hs]. split; [exact Hv|]. split; [|exact Hs].
  intros o. rewrite lengths_rems in H2. rewrite (run_lv_eq lv L tms H2). apply nest_result_acc. exact H3.
Qed.

(* non-vacuity: accepted are a two-term sum with a reduction, a scalar and an accumulate, and an assignment without
   reduction; an assignment that reduces K away is rejected *)
Example nest_full_okb_example :
  nest_full_okb ["M"; "K"]%string [[["M"; "K"]; ["K"]]; [["M"; "K"]; []]]%string
                [("M"%string, [[0%nat]; [0%nat]]); ("K"%string, [[0%nat; 1%nat]; [0%nat]])] true [[0%nat; 1%nat]; [0%nat; 1%nat]] ["M"]%string = true
  /\ nest_full_okb ["M"]%string [[["M"]; []]]%string [("M"%string, [[0%nat]])] false [[0%nat; 1%nat]] ["M"]%string = true
  /\ nest_full_okb ["M"; "K"]%string [[["M"; "K"]; ["K"]]]%string
                [("M"%string, [[0%nat]]); ("K"%string, [[0%nat; 1%nat]])] false [[0%nat; 1%nat]] ["M"]%string = false.
Proof. repeat split; vm_compute; reflexivity. Qed.
