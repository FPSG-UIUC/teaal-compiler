(* Induction principles for the nested inductives of Model/Py.v: Coq's generated ones give no
   hypothesis for the expressions and statements inside lists. *)
From Coq Require Import String List.
Require Import TV.Model.Py.
Import ListNotations.

Section ExprInd.
  Variable P : expr -> Prop.
  Hypothesis HName : forall x, P (EName x).
  Hypothesis HInt : forall z, P (EInt z).
  Hypothesis HStr : forall s, P (EStr s).
  Hypothesis HBool : forall b, P (EBool b).
  Hypothesis HNone_ : P ENone.
  Hypothesis HBin : forall op a b, P a -> P b -> P (EBin op a b).
  Hypothesis HNeg : forall a, P a -> P (ENeg a).
  Hypothesis HCmp : forall op a b, P a -> P b -> P (ECmp op a b).
  (* a method call `re.m(..)`: also the hypothesis for the receiver `re`, which functions that treat
     `ECall (EAttr re m) ..` apart recurse into *)
  Hypothesis HCall : forall f args kw, P f -> match f return Prop with EAttr re _ => P re | _ => True end ->
                                       Forall P args -> Forall (fun p => P (snd p)) kw -> P (ECall f args kw).
  Hypothesis HAttr : forall a s, P a -> P (EAttr a s).
  Hypothesis HSub : forall a i, P a -> P i -> P (ESub a i).
  Hypothesis HTuple : forall l, Forall P l -> P (ETuple l).
  Hypothesis HList : forall l, Forall P l -> P (EList l).
  Hypothesis HDict : forall l, Forall (fun p => P (fst p) /\ P (snd p)) l -> P (EDict l).
  Hypothesis HLam : forall ps b, P b -> P (ELam ps b).
  Hypothesis HComp : forall a x it, P a -> P it -> P (EComp a x it).

  Fixpoint expr_ind_call (e : expr) {struct e} : P e :=
    let all := fix go (l : list expr) : Forall P l :=
                 match l with
                 | [] => Forall_nil _
                 | x :: l' => Forall_cons x (expr_ind_call x) (go l')
                 end in
    match e with
    | EName x => HName x
    | EInt z => HInt z
    | EStr s => HStr s
    | EBool b => HBool b
    | ENone => HNone_
    | EBin op a b => HBin op a b (expr_ind_call a) (expr_ind_call b)
    | ENeg a => HNeg a (expr_ind_call a)
    | ECmp op a b => HCmp op a b (expr_ind_call a) (expr_ind_call b)
    | ECall f args kw =>
        HCall f args kw (expr_ind_call f)
              (match f as f0 return match f0 return Prop with EAttr re _ => P re | _ => True end with
               | EAttr re _ => expr_ind_call re
               | _ => I
               end)
              (all args)
              ((fix go (l : list (string * expr)) : Forall (fun p => P (snd p)) l :=
                  match l with
                  | [] => Forall_nil _
                  | (k, v) :: l' => Forall_cons (k, v) (expr_ind_call v) (go l')
                  end) kw)
    | EAttr a s => HAttr a s (expr_ind_call a)
    | ESub a i => HSub a i (expr_ind_call a) (expr_ind_call i)
    | ETuple l => HTuple l (all l)
    | EList l => HList l (all l)
    | EDict l =>
        HDict l ((fix go (l : list (expr * expr)) : Forall (fun p => P (fst p) /\ P (snd p)) l :=
                    match l with
                    | [] => Forall_nil _
                    | (k, v) :: l' => Forall_cons (k, v) (conj (expr_ind_call k) (expr_ind_call v)) (go l')
                    end) l)
    | ELam ps b => HLam ps b (expr_ind_call b)
    | EComp a x it => HComp a x it (expr_ind_call a) (expr_ind_call it)
    end.
End ExprInd.

Definition expr_ind' (P : expr -> Prop)
  (HName : forall x, P (EName x)) (HInt : forall z, P (EInt z)) (HStr : forall s, P (EStr s))
  (HBool : forall b, P (EBool b)) (HNone_ : P ENone)
  (HBin : forall op a b, P a -> P b -> P (EBin op a b)) (HNeg : forall a, P a -> P (ENeg a))
  (HCmp : forall op a b, P a -> P b -> P (ECmp op a b))
  (HCall : forall f args kw, P f -> Forall P args -> Forall (fun p => P (snd p)) kw -> P (ECall f args kw))
  : (forall a s, P a -> P (EAttr a s)) -> (forall a i, P a -> P i -> P (ESub a i)) ->
    (forall l, Forall P l -> P (ETuple l)) -> (forall l, Forall P l -> P (EList l)) ->
    (forall l, Forall (fun p => P (fst p) /\ P (snd p)) l -> P (EDict l)) ->
    (forall ps b, P b -> P (ELam ps b)) -> (forall a x it, P a -> P it -> P (EComp a x it)) ->
    forall e, P e :=
  expr_ind_call P HName HInt HStr HBool HNone_ HBin HNeg HCmp (fun f args kw Hf _ => HCall f args kw Hf).

Section StmtBlockInd.
  Variable P : stmt -> Prop.
  Variable Q : list stmt -> Prop.
  Hypothesis HAssign : forall t e, P (SAssign t e).
  Hypothesis HAug : forall op t e, P (SAug op t e).
  Hypothesis HExpr : forall e, P (SExpr e).
  Hypothesis HFor : forall p e body, Q body -> P (SFor p e body).
  Hypothesis HIf : forall c a b, Q a -> Q b -> P (SIf c a b).
  Hypothesis HNil : Q [].
  Hypothesis HCons : forall s ss, P s -> Q ss -> Q (s :: ss).

  Fixpoint stmt_ind_blocks (s : stmt) : P s :=
    let blk := fix go (l : list stmt) : Q l :=
                 match l with
                 | [] => HNil
                 | x :: l' => HCons x l' (stmt_ind_blocks x) (go l')
                 end in
    match s as s0 return P s0 with
    | SAssign t e => HAssign t e
    | SAug op t e => HAug op t e
    | SExpr e => HExpr e
    | SFor p e body => HFor p e body (blk body)
    | SIf c a b => HIf c a b (blk a) (blk b)
    end.

  Lemma stmt_block_ind : (forall s, P s) /\ (forall ss, Q ss).
  Proof.
    split; [exact stmt_ind_blocks|].
    induction ss as [|s ss IH]; [exact HNil|exact (HCons s ss (stmt_ind_blocks s) IH)].
  Qed.
End StmtBlockInd.
