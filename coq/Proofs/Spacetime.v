(* C16: the emitted `timestamps` counter discipline (slip) yields pairwise distinct stamps, and the
   canvas API of the modelled runtime is observation-only. *)
From Coq Require Import String List Lia.
Require Import TV.Model.Rt TV.Model.Interp TV.Proofs.RtFrame.
Import ListNotations.
Close Scope Z_scope.

Section Slip.
  Variable A : Type.
  Variable eq_dec : forall x y : A, {x = y} + {x <> y}.

  (* what the emitted code computes: for the i-th activity with space stamp s,
     timestamps[s] is incremented (or set to 1) and the time stamp is timestamps[s] - 1,
     i.e. the number of earlier activities with the same space stamp *)
  Fixpoint stamps (seen : list A) (l : list A) : list (A * nat) :=
    match l with
    | [] => []
    | s :: l' => (s, count_occ eq_dec seen s) :: stamps (s :: seen) l'
    end.

  Lemma stamps_lower_bound l : forall seen s n, In (s, n) (stamps seen l) -> count_occ eq_dec seen s <= n.
  Proof.
    induction l as [|x l IH]; intros seen s n H; [destruct H|].
    cbn [stamps] in H. destruct H as [H|H].
    - injection H as <- <-. lia.
    - apply IH in H. cbn [count_occ] in H. destruct (eq_dec x s); lia.
  Qed.

  Theorem slip_unique l : forall seen, NoDup (stamps seen l).
  Proof.
    induction l as [|x l IH]; intros seen; cbn [stamps]; constructor; [|apply IH].
    intros H. apply stamps_lower_bound in H. cbn [count_occ] in H.
    destruct (eq_dec x x) as [_|N]; [lia|apply N; reflexivity].
  Qed.

  Theorem stamps_space l seen : map fst (stamps seen l) = l.
  Proof. revert seen. induction l as [|x l IH]; intros seen; cbn [stamps map fst]; [reflexivity|]. rewrite IH. reflexivity. Qed.

  Theorem stamps_length l seen : length (stamps seen l) = length l.
  Proof. rewrite <- (map_length fst (stamps seen l)), stamps_space. reflexivity. Qed.
End Slip.

(* the canvas / metrics entry points of the modelled runtime never write an existing object:
   every global API call (the Tensor constructor too) only allocates or logs *)
Theorem observation_calls_frame g args kw st v st' :
  global_call g args kw st = Ok (v, st') -> frame st st'.
Proof.
  revert v st'. change (ensures (frame st) (global_call g args kw st)). unfold global_call.
  (* min/max ends in `match a, b with VOpaque, _ | _, VOpaque => .. | _, _ => Er ..`, which compiles to
     some 150 copies of the error; under a name they stay small while the cases are walked *)
  set (bad := Er (ErrType "min/max") : res (value * state)).
  apply ensures_if.
  { destruct (kwarg "rank_ids" kw) as [v|]; [|apply ensures_Er].
    destruct (str_list v) as [ids|]; [|apply ensures_Er].
    apply ensures_let_frame; [destruct ids; apply alloc_frame|auto with ensures]. }
  do 5 (apply ensures_if; [ensures_cases; subst bad; auto with ensures|]).
  apply ensures_if; [apply ensures_let_frame; auto with ensures|]. auto with ensures.
Qed.
