(* C07 (runtime half): every tensor-producing operation of the modelled runtime only
   allocates; objects that existed before are untouched and the environment is unchanged. *)
From Coq Require Import String List ZArith Lia.
Require Import TV.Model.Rt TV.Model.Interp TV.Proofs.ListFacts.
Import ListNotations.

Definition frame (st st' : state) : Prop :=
  (forall l, (l < next st)%positive -> PM.find l (heap st') = PM.find l (heap st)) /\
  (next st <= next st')%positive /\ env st' = env st.

Lemma frame_refl st : frame st st.
Proof. split; [reflexivity|]. split; [lia|reflexivity]. Qed.

Lemma frame_trans a b c : frame a b -> frame b c -> frame a c.
Proof.
  intros [H1 [H2 H3]] [K1 [K2 K3]]. split; [|split; [lia|congruence]].
  intros l Hl. rewrite K1 by lia. apply H1. exact Hl.
Qed.

Lemma alloc_frame o st : frame st (snd (alloc o st)).
Proof.
  unfold alloc, frame. cbn [snd next heap env]. split; [|split; [lia|reflexivity]].
  intros l Hl. apply PM.gso. lia.
Qed.

Lemma addlog_frame s args st : frame st (addlog s args st).
Proof. exact (frame_refl st). Qed.

(* the lemmas about it follow the shapes the interpreter's API functions are written in *)
Definition ensures (P : state -> Prop) (r : res (value * state)) : Prop :=
  forall v st', r = Ok (v, st') -> P st'.

Section Ensures.
  Variable P : state -> Prop.

  Lemma ensures_Er e : ensures P (Er e).
  Proof. intros v st' H. discriminate H. Qed.

  Lemma ensures_Ok p : P (snd p) -> ensures P (Ok p).
  Proof. intros H v st' E. injection E as ->. exact H. Qed.

  Lemma ensures_ret v st : P st -> ensures P (Ok (v, st)).
  Proof. apply (ensures_Ok (v, st)). Qed.

  Lemma ensures_bind {A} (r : res A) f : (forall a, ensures P (f a)) -> ensures P (bind r f).
  Proof. intros H. destruct r as [a|e]; [apply H|apply ensures_Er]. Qed.

  (* for `match get_tensor st tv with Some (ids, root, nm) => ..`: taking the triple apart in one
     step, since destructing it afterwards is slow in a goal as large as the body of `tensor_method` *)
  Lemma ensures_option3 {A B C} (o : option (A * B * C)) f e :
    (forall a b c, ensures P (f a b c)) -> ensures P (match o with Some (a, b, c) => f a b c | None => Er e end).
  Proof. intros H. destruct o as [[[a b] c]|]; [apply H|apply ensures_Er]. Qed.

  Lemma ensures_if (b : bool) x y : ensures P x -> ensures P y -> ensures P (if b then x else y).
  Proof. destruct b; trivial. Qed.

  Lemma ensures_else (b : bool) x y : b = false -> ensures P y -> ensures P (if b then x else y).
  Proof. intros ->. trivial. Qed.
End Ensures.

Create HintDb ensures discriminated.
#[export] Hint Resolve ensures_Er ensures_ret ensures_Ok frame_refl alloc_frame addlog_frame : ensures.

(* case analysis on whatever the result at hand scrutinises, repeated down to the leaves (errors,
   `Ok` of the state reached, calls of the allocating primitives), which `auto with ensures` closes *)
Ltac ensures_cases :=
  repeat (cbv iota;
          match goal with
          | |- ensures _ (match ?x with _ => _ end) => case x; intros
          | |- ensures _ (bind _ _) => apply ensures_bind; intro
          end).

Lemma frame_let {A B} st (p : A * state) (k : A -> state -> B * state) :
  frame st (snd p) -> (forall a s, frame s (snd (k a s))) -> frame st (snd (let '(a, s) := p in k a s)).
Proof. destruct p as [a s]. intros F K. exact (frame_trans _ _ _ F (K a s)). Qed.

Lemma ensures_let_frame {A} st (p : A * state) k :
  frame st (snd p) -> (forall a s, ensures (frame s) (k a s)) -> ensures (frame st) (let '(a, s) := p in k a s).
Proof. destruct p as [a s]. intros F K v st' E. exact (frame_trans _ _ _ F (K a s v st' E)). Qed.

Lemma store_frame d : forall t st, frame st (snd (store d t st)).
Proof.
  induction d as [|d IH]; intros t st; cbn [store]; [apply alloc_frame|].
  apply frame_let; [|intros; apply alloc_frame].
  apply (fold_left_invariant (fun acc => frame st (snd acc))); [|apply frame_refl].
  intros [es s] ct _ F. cbn [snd] in F |- *. apply (frame_trans _ _ _ F).
  apply frame_let; [apply IH|intros; apply frame_refl].
Qed.

Lemma new_tensor_frame ids t nm st : frame st (snd (new_tensor ids t nm st)).
Proof. apply frame_let; [apply store_frame|intros; apply alloc_frame]. Qed.
#[export] Hint Resolve new_tensor_frame : ensures.

Lemma tensor_op_frame tv d n mid f st : ensures (frame st) (tensor_op tv d n mid f st).
Proof. unfold tensor_op. ensures_cases; auto with ensures. Qed.
#[export] Hint Resolve tensor_op_frame : ensures.

(* the two literal patterns compile to a decision tree over the bits of the characters of the
   style; every leaf of it is one of the three branches *)
Lemma coord_style_cases {A} (P : A -> Prop) (o : option value) a b c :
  P a -> P b -> P c ->
  P (match o with Some (VStr "tuple") => a | Some (VStr "absolute") => b | _ => c end).
Proof.
  intros Ha Hb Hc.
  repeat match goal with |- P (match ?x with _ => _ end) => destruct x end; assumption.
Qed.

Theorem tensor_method_frame tv m args kw st :
  m <> "setRankIds"%string -> ensures (frame st) (tensor_method tv m args kw st).
Proof.
  intros Hm. unfold tensor_method.
  (* the error for an unknown coord_style sits at every one of the some 250 leaves of the decision
     tree that the patterns "tuple" and "absolute" compile to and makes up most of the goal: name it *)
  set (bad_style := Er (ErrApi "flatten/merge: coord_style") : res (value * state)).
  apply ensures_option3; intros ids root nm.
  do 2 (apply ensures_if; [auto with ensures|]).
  apply ensures_else; [apply String.eqb_neq, Hm|].
  do 4 (apply ensures_if; [ensures_cases; auto with ensures|]).
  apply ensures_if.
  { do 2 (apply ensures_bind; intro). apply (coord_style_cases (ensures (frame st))); [auto with ensures..|apply ensures_Er]. }
  apply ensures_if; [ensures_cases; auto with ensures|]. apply ensures_Er.
Qed.

(* the tensor methods that return a new tensor, and the two that only read *)
Definition allocating (m : string) : bool :=
  existsb (String.eqb m) ["swizzleRanks"; "splitUniform"; "splitEqual"; "splitNonUniform"; "flattenRanks"; "mergeRanks"; "unflattenRanks"; "getRoot"; "getRankIds"]%string.

Theorem fresh_ops_frame tv m args kw st v st' :
  allocating m = true -> tensor_method tv m args kw st = Ok (v, st') -> frame st st'.
Proof. intros Hm. apply tensor_method_frame. intros ->. discriminate Hm. Qed.

Lemma hset_others l o st :
  (forall l', l' <> l -> PM.find l' (heap (hset l o st)) = PM.find l' (heap st)) /\
  env (hset l o st) = env st /\ next (hset l o st) = next st.
Proof. split; [|split; reflexivity]. intros l' Hl'. apply PM.gso. exact Hl'. Qed.

Theorem set_rank_ids_frame l args kw st v st' :
  tensor_method (VLoc l) "setRankIds" args kw st = Ok (v, st') ->
  (forall l', l' <> l -> PM.find l' (heap st') = PM.find l' (heap st)) /\ env st' = env st /\ next st' = next st.
Proof.
  (* the statement reads `ensures (fun st' => ..) (tensor_method ..)` once v and st' are back in the goal *)
  revert v st'. lazy [tensor_method String.eqb Ascii.eqb Bool.eqb andb].
  apply ensures_option3; intros ids root nm.
  ensures_cases; [|apply ensures_Er..]. apply ensures_Ok, hset_others.
Qed.
