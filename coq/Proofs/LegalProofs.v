(* Proofs about Model/Legal.v (property C18): every instance of a stated legality rule is
   rejected by the guards, wherever the violation sits (any Einsum of the cascade, any entry of
   the partitioning dictionary, any position of a rank tuple, any depth of a directive stack)
   and whatever else the specification contains. *)
From Coq Require Import String List Bool ZArith Lia.
Require Import TV.Model.Fusion TV.Proofs.ListFacts TV.Proofs.FusionProofs TV.Model.Legal.
Import ListNotations.
Open Scope string_scope.

Lemma mem_false x l : mem x l = false <-> ~ In x l.
Proof. apply false_iff, mem_In. Qed.

Lemma nodupb_NoDup l : nodupb l = true <-> NoDup l.
Proof.
  induction l as [|x l IH]; simpl.
  - split; [constructor|reflexivity].
  - rewrite andb_true_iff, negb_true_iff, mem_false, IH. symmetry. apply NoDup_cons_iff.
Qed.

Lemma nodupb_false l : nodupb l = false <-> ~ NoDup l.
Proof. apply false_iff, nodupb_NoDup. Qed.

Lemma inclb_incl a b : inclb a b = true <-> incl a b.
Proof. apply forallb_iff. intro x. apply mem_In. Qed.

Lemma set_eqb_iff a b : set_eqb a b = true <-> (forall v, In v a <-> In v b).
Proof.
  unfold set_eqb. rewrite andb_true_iff, !inclb_incl. unfold incl. split.
  - intros [H1 H2] v. split; auto.
  - intros H. split; intros v Hv; apply H; exact Hv.
Qed.

Lemma set_eqb_false a b : set_eqb a b = false <-> ~ (forall v, In v a <-> In v b).
Proof. apply false_iff, set_eqb_iff. Qed.

Lemma set_eqb_refl a : set_eqb a a = true.
Proof. apply set_eqb_iff. tauto. Qed.

Lemma is_flatten_In ps : existsb is_flatten ps = true <-> In DFlatten ps.
Proof. apply existsb_eqb_In. intros []; simpl; split; congruence. Qed.

Lemma is_static_iff d : is_static d = true <-> (d = DUShape \/ d = DNway).
Proof. destruct d; simpl; split; try discriminate; auto; intros [H|H]; discriminate. Qed.

Definition no_crash (s : spec) : Prop := Forall (fun r => r <> Crash) (stages s).

Definition no_crashb (s : spec) : bool :=
  forallb (fun r => match r with Crash => false | _ => true end) (stages s).

Lemma no_crashb_iff s : no_crashb s = true <-> no_crash s.
Proof. unfold no_crash. rewrite Forall_forall. apply forallb_iff. intros []; split; congruence. Qed.

Lemma first_nonok_spec l :
  match first_nonok l with Ok => Forall (fun r => r = Ok) l | r => In r l end.
Proof.
  induction l as [|x l IH]; simpl; [constructor|].
  destruct x; [|left; reflexivity|left; reflexivity].
  destruct (first_nonok l); [constructor; [reflexivity|exact IH]|right; exact IH|right; exact IH].
Qed.

Lemma stage_rejects s r : In r (stages s) -> r <> Ok -> no_crash s -> exists x, guard s = Err x.
Proof.
  intros Hin Hr Hnc. unfold guard. pose proof (first_nonok_spec (stages s)) as H.
  destruct (first_nonok (stages s)) as [|x|].
  - rewrite Forall_forall in H. destruct (Hr (H r Hin)).
  - exists x. reflexivity.
  - unfold no_crash in Hnc. rewrite Forall_forall in Hnc. destruct (Hnc _ H eq_refl).
Qed.

Definition rule_sound (r : spec -> bool) : Prop :=
  forall s, r s = true -> no_crash s -> exists x, guard s = Err x.

Lemma dup_rank_guard s : r_dup_rank s = true -> decl_guard s = Err EDupRank.
Proof.
  unfold r_dup_rank, decl_guard. rewrite existsb_negb_forallb, negb_true_iff. intros ->. reflexivity.
Qed.

Theorem dup_rank_rejected : rule_sound r_dup_rank.
Proof.
  intros s H Hnc. apply (stage_rejects s (decl_guard s)); [simpl; auto| |exact Hnc].
  rewrite (dup_rank_guard s H). discriminate.
Qed.

Lemma missing_config_guard s : r_missing_config s = true -> bind_guard s = Err ENoConfig.
Proof.
  unfold r_missing_config, bind_guard. destruct (s_bind s) as [bs|]; [|discriminate].
  rewrite existsb_negb_forallb, negb_true_iff. intros ->. reflexivity.
Qed.

Theorem missing_config_rejected s : r_missing_config s = true -> guard s = Err ENoConfig.
Proof. intro H. unfold guard, stages. simpl. rewrite (missing_config_guard s H). reflexivity. Qed.

Lemma einsum_stage_in s e r : In e (s_einsums s) -> In r (einsum_stages s e) -> In r (stages s).
Proof.
  intros He Hr. unfold stages. right. right. apply in_flat_map. exists e. split; assumption.
Qed.

Lemma any_einsum_exists f s : any_einsum f s = true <-> exists e, In e (s_einsums s) /\ f e = true.
Proof. unfold any_einsum. apply existsb_exists. Qed.

Lemma einsum_rule_sound (f : spec -> einsum -> bool) :
  (forall s e, f s e = true -> eq_guard s e <> Ok \/ part_guard s e <> Ok \/ flow_guard s e <> Ok) ->
  rule_sound (fun s => any_einsum (f s) s).
Proof.
  intros Hloc s H. apply any_einsum_exists in H as [e [He H]].
  assert (Hin : forall r, In r (einsum_stages s e) -> In r (stages s)) by (intro r; apply einsum_stage_in, He).
  destruct (Hloc s e H) as [Hr|[Hr|Hr]]; refine (stage_rejects s _ (Hin _ _) Hr); simpl; auto.
Qed.

(* what Equation.__init__ demands of an Einsum *)
Definition equation_ok (s : spec) (e : einsum) : Prop :=
  (forall t1 t2, In t1 (e_terms e) -> In t2 (e_terms e) -> set_eqb (term_vars t1) (term_vars t2) = true) /\
  forallb (fun n => mem n (map fst (s_decl s))) (es_names e) = true /\
  nodupb (es_names e) = true.

Lemma eq_guard_spec s e :
  match eq_guard s e with Ok => equation_ok s e | Err _ => True | Crash => e_terms e = [] end.
Proof.
  unfold eq_guard, equation_ok. destruct (e_terms e) as [|t0 ts]; [reflexivity|].
  destruct (forallb _ ts) eqn:E; [|exact I].
  destruct (forallb _ (es_names e)); [|exact I]. destruct (nodupb (es_names e)); [|exact I].
  split; [|split; reflexivity].
  (* every term has the variables of the first one *)
  assert (Hall : forall t, In t (t0 :: ts) -> forall v, In v (term_vars t) <-> In v (term_vars t0)).
  { intros t [<-|Ht]; [tauto|]. apply set_eqb_iff. rewrite forallb_forall in E. apply E, Ht. }
  intros t1 t2 H1 H2. apply set_eqb_iff. intro v. rewrite (Hall t1 H1 v), (Hall t2 H2 v). tauto.
Qed.

Lemma eq_rule_sound (f : spec -> einsum -> bool) :
  (forall s e, f s e = true -> ~ equation_ok s e) -> rule_sound (fun s => any_einsum (f s) s).
Proof.
  intro Hloc. apply einsum_rule_sound. intros s e H. left. intro Hok.
  pose proof (eq_guard_spec s e) as Hs. rewrite Hok in Hs. exact (Hloc s e H Hs).
Qed.

Theorem undeclared_tensor_rejected : rule_sound r_undeclared.
Proof.
  apply eq_rule_sound. intros s e H [_ [Hd _]]. rewrite existsb_negb_forallb, Hd in H. discriminate.
Qed.

Theorem repeated_tensor_rejected : rule_sound r_repeated.
Proof.
  apply eq_rule_sound. intros s e H [_ [_ Hn]]. rewrite Hn in H. discriminate.
Qed.

Theorem term_rank_mismatch_rejected : rule_sound r_term_mismatch.
Proof.
  apply eq_rule_sound. intros s e H [Ht _].
  apply existsb_exists in H as [t1 [H1 H]]. apply existsb_exists in H as [t2 [H2 H]].
  rewrite (Ht t1 t2 H1 H2) in H. discriminate.
Qed.

(* the rule's scan raises its flag at an occupancy split, __nway_after_dyn raises its own at every directive that is
   not a shape split: the code's flag is up wherever the rule's is *)
Lemma occ_then_nway_dyn ps : forall seen dyn,
  occ_then_nway seen ps = true -> (seen = true -> dyn = true) -> nway_after_dyn_aux dyn ps = true.
Proof.
  induction ps as [|p ps IH]; intros seen dyn H Hs; simpl in *; [discriminate|].
  apply orb_true_iff in H as [H|H].
  - apply andb_true_iff in H as [Hn Hseen]. rewrite (Hs Hseen).
    destruct p; try discriminate. reflexivity.
  - destruct (is_static p) eqn:Est.
    + destruct (is_nway p && dyn); [reflexivity|]. apply (IH (seen || is_occ p)); [exact H|].
      destruct p; try discriminate; simpl; rewrite orb_false_r; exact Hs.
    + apply (IH (seen || is_occ p)); [exact H|reflexivity].
Qed.

Section PartLoop.
Variable im : string -> bool.
Variable entries : list pentry.
Variable orig : list string.

(* what __check_flatten demands of a flatten() on the tuple T, whatever all_ranks has become *)
Definition flatten_ok (T : list string) (parts : list directive) : Prop :=
  length parts <= 1 /\ 2 <= length T /\ existsb im T = false /\
  forall r, In r T -> partitioned_indep entries r = false /\ derived_name orig r = false.

(* what one iteration (`part_step`) demands of an entry, whatever all_ranks has become *)
Definition passable (en : pentry) : Prop :=
  nway_after_dyn (pe_parts en) = false /\
  if flatten_entry_b en then flatten_ok (pe_ranks en) (pe_parts en)
  else pe_parts en = [] \/
       exists src, pe_ranks en = [src] /\ (mem src orig = true \/ shape_split_applies entries en = false).

(* the entries on which one iteration fails with something that is not a ValueError *)
Definition crashing (en : pentry) : Prop :=
  pe_ranks en = [] \/ exists l tl, pe_parts en = DFollow l :: tl /\ part_of entries [l] = None.

Lemma check_tuple_ranks_spec all T :
  match check_tuple_ranks entries orig all T with
  | Ok => forall r, In r T -> partitioned_indep entries r = false /\ derived_name orig r = false
  | Err _ => True
  | Crash => False
  end.
Proof.
  induction T as [|x T IH]; simpl; [intros r []|].
  destruct (partitioned_indep entries x) eqn:Ep; [exact I|].
  destruct (mem x orig) eqn:Eo; simpl;
    [|destruct (mem x all); [exact I|]; destruct (bottom_of_orig orig x) eqn:Eb; simpl; [|exact I]].
  (* in both branches that go on to the rest of T, x is not a derived name *)
  all: destruct (check_tuple_ranks entries orig all T); [|exact I|exact IH].
  all: intros r [<-|Hr]; [unfold derived_name; rewrite Ep, Eo, ?Eb; split; reflexivity|apply IH, Hr].
Qed.

Lemma check_flatten_spec all T parts :
  match check_flatten im entries orig all T parts with
  | Ok => if existsb is_flatten parts then flatten_ok T parts else length T = 1
  | Err _ => True
  | Crash => False
  end.
Proof.
  unfold check_flatten, flatten_ok. destruct (existsb is_flatten parts); simpl.
  - destruct (Nat.ltb_spec 1 (length parts)) as [|Hp]; [exact I|].
    destruct (Nat.ltb_spec (length T) 2) as [|HT]; [exact I|]. destruct (existsb im T); [exact I|].
    pose proof (check_tuple_ranks_spec all T) as H. destruct (check_tuple_ranks entries orig all T); auto.
  - destruct (Nat.eqb_spec (length T) 1) as [HT|]; [exact HT|exact I].
Qed.

Lemma part_step_spec all en :
  match fst (part_step im entries orig all en) with
  | Ok => passable en
  | Err _ => True
  | Crash => crashing en
  end.
Proof.
  unfold part_step, passable, crashing, flatten_entry_b, shape_split_applies.
  destruct (pe_parts en) as [|p ps]; [simpl; auto|].
  destruct (nway_after_dyn (p :: ps)); [exact I|].
  pose proof (check_flatten_spec all (pe_ranks en) (p :: ps)) as Hc.
  destruct (check_flatten im entries orig all (pe_ranks en) (p :: ps)); [|exact I|destruct Hc].
  destruct (pe_ranks en) as [|src [|r2 T]]; cbn [fst].
  - left. reflexivity.
  - destruct (eff_parts entries (p :: ps)) as [l|] eqn:E; cbn [fst].
    + destruct (negb (mem src orig) && existsb is_static l) eqn:Es; [exact I|]. split; [reflexivity|].
      destruct (existsb is_flatten (p :: ps)); [destruct Hc as [_ [Hc _]]; simpl in Hc; lia|].
      right. exists src. split; [reflexivity|].
      apply andb_false_iff in Es. rewrite negb_false_iff in Es. exact Es.
    + right. destruct p; try discriminate E. exists leader, ps. split; [reflexivity|exact E].
  - split; [reflexivity|]. destruct (existsb is_flatten (p :: ps)); [exact Hc|discriminate Hc].
Qed.

Lemma part_loop_spec todo : forall all,
  match part_loop im entries orig all todo with
  | Ok => forall en, In en todo -> exists all', fst (part_step im entries orig all' en) = Ok
  | Err _ => True
  | Crash => exists en all', In en todo /\ fst (part_step im entries orig all' en) = Crash
  end.
Proof.
  induction todo as [|x todo IH]; intro all; simpl; [intros en []|].
  destruct (part_step im entries orig all x) as [[| |] all'] eqn:E.
  - specialize (IH all'). destruct (part_loop im entries orig all' todo).
    + intros en [<-|Hen]; [exists all; rewrite E; reflexivity|apply IH, Hen].
    + exact I.
    + destruct IH as (en & a & Hen & Hc). exists en, a. split; [right; exact Hen|exact Hc].
  - exact I.
  - exists x, all. split; [left; reflexivity|rewrite E; reflexivity].
Qed.

Lemma passable_flatten en : passable en -> flatten_entry_b en = true -> flatten_ok (pe_ranks en) (pe_parts en).
Proof. intros [_ H] Hf. rewrite Hf in H. exact H. Qed.

Lemma nway_entry_rejected en : occ_then_nway false (pe_parts en) = true -> ~ passable en.
Proof.
  intros H [Hn _]. unfold nway_after_dyn in Hn.
  rewrite (occ_then_nway_dyn _ false false H) in Hn; discriminate.
Qed.

Lemma tuple_entry_rejected en :
  length (pe_ranks en) <> 1 -> pe_parts en <> [] -> flatten_entry_b en = false -> ~ passable en.
Proof.
  intros H1 H2 H3 [_ H]. rewrite H3 in H. destruct H as [H|[src [H _]]]; [contradiction|].
  rewrite H in H1. apply H1. reflexivity.
Qed.

Lemma shape_entry_rejected en name :
  pe_ranks en = [name] -> mem name orig = false -> shape_split_applies entries en = true -> ~ passable en.
Proof.
  intros Hr Hno Hs [_ H]. destruct (flatten_entry_b en).
  - destruct H as [_ [H _]]. rewrite Hr in H. simpl in H. lia.
  - destruct H as [H|[src [Hsrc H]]].
    + unfold shape_split_applies in Hs. rewrite H in Hs. discriminate.
    + rewrite Hr in Hsrc. injection Hsrc as <-. destruct H; congruence.
Qed.

End PartLoop.

Arguments passable_flatten {im entries orig en}.
Arguments shape_entry_rejected {im entries orig en name}.

Lemma part_guard_spec s e :
  match part_guard s e with
  | Ok => forall en, In en (e_parts e) -> passable (imath s e) (e_parts e) (orig_ranks s e) en
  | Err _ => True
  | Crash => exists en, In en (e_parts e) /\ crashing (e_parts e) en
  end.
Proof.
  unfold part_guard. set (im := imath s e). set (orig := orig_ranks s e).
  pose proof (part_loop_spec im (e_parts e) orig (e_parts e) orig) as H.
  destruct (part_loop im (e_parts e) orig orig (e_parts e)); [|exact I|].
  - intros en Hen. destruct (H en Hen) as [all E].
    pose proof (part_step_spec im (e_parts e) orig all en) as Hs. rewrite E in Hs. exact Hs.
  - destruct H as (en & all & Hen & E). exists en. split; [exact Hen|].
    pose proof (part_step_spec im (e_parts e) orig all en) as Hs. rewrite E in Hs. exact Hs.
Qed.

Lemma part_guard_reject s e en :
  In en (e_parts e) -> ~ passable (imath s e) (e_parts e) (orig_ranks s e) en -> part_guard s e <> Ok.
Proof.
  intros Hin Hbad Hok. pose proof (part_guard_spec s e) as H. rewrite Hok in H. exact (Hbad (H en Hin)).
Qed.

Lemma part_rule_sound (f : spec -> einsum -> pentry -> bool) :
  (forall s e en, f s e en = true -> ~ passable (imath s e) (e_parts e) (orig_ranks s e) en) ->
  rule_sound (fun s => any_einsum (fun e => existsb (f s e) (e_parts e)) s).
Proof.
  intro Hloc. apply einsum_rule_sound. intros s e H. apply existsb_exists in H as [en [Hen Hf]].
  right. left. exact (part_guard_reject s e en Hen (Hloc s e en Hf)).
Qed.

Theorem flatten_with_others_rejected : rule_sound r_flatten_with_others.
Proof.
  apply part_rule_sound.
  intros s e en H Hp. apply andb_true_iff in H as [Hf Hl]. apply Nat.leb_le in Hl.
  destruct (passable_flatten Hp Hf) as [H _]. lia.
Qed.

Theorem flatten_lt2_rejected : rule_sound r_flatten_lt2.
Proof.
  apply part_rule_sound.
  intros s e en H Hp. apply andb_true_iff in H as [Hf Hl]. apply Nat.ltb_lt in Hl.
  destruct (passable_flatten Hp Hf) as [_ [H _]]. lia.
Qed.

Theorem flatten_index_math_rejected : rule_sound r_flatten_index_math.
Proof.
  apply part_rule_sound.
  intros s e en H Hp. apply andb_true_iff in H as [Hf Hl].
  destruct (passable_flatten Hp Hf) as [_ [_ [H _]]]. congruence.
Qed.

Theorem flatten_and_partitioned_rejected : rule_sound r_flatten_and_partitioned.
Proof.
  apply part_rule_sound.
  intros s e en H Hp. apply andb_true_iff in H as [Hf Hl]. apply existsb_exists in Hl as [r [Hr Hpi]].
  destruct (passable_flatten Hp Hf) as [_ [_ [_ H]]]. destruct (H r Hr). congruence.
Qed.

(* the entry rejected is the second one, which flattens the name that the first one produces *)
Theorem flatten_of_flattened_rejected : rule_sound r_flatten_of_flattened.
Proof.
  apply einsum_rule_sound. intros s e H. right. left.
  apply existsb_exists in H as [en1 [_ H]]. apply andb_true_iff in H as [H H2].
  apply andb_true_iff in H as [_ Hd]. apply existsb_exists in H2 as [en2 [Hen2 H2]].
  apply andb_true_iff in H2 as [Hf2 Hm]. apply mem_In in Hm.
  apply (part_guard_reject s e en2 Hen2). intro Hp.
  destruct (passable_flatten Hp Hf2) as [_ [_ [_ H]]]. destruct (H _ Hm). congruence.
Qed.

Theorem nway_after_occupancy_rejected : rule_sound r_nway_after_occupancy.
Proof.
  apply part_rule_sound.
  intros s e en. apply nway_entry_rejected.
Qed.

(* the entry rejected is the second one, which splits the name that the first one produces *)
Theorem shape_after_flatten_rejected : rule_sound r_shape_after_flatten.
Proof.
  apply einsum_rule_sound. intros s e H. right. left.
  apply existsb_exists in H as [en1 [_ H]]. apply andb_true_iff in H as [H H2].
  apply andb_true_iff in H as [_ Hno]. apply existsb_exists in H2 as [en2 [Hen2 H2]].
  apply andb_true_iff in H2 as [Hk Hs]. apply strs_eqb_eq in Hk. apply negb_true_iff in Hno.
  exact (part_guard_reject s e en2 Hen2 (shape_entry_rejected Hk Hno Hs)).
Qed.

Theorem directive_on_tuple_rejected : rule_sound r_directive_on_tuple.
Proof.
  apply part_rule_sound.
  intros s e en H. apply andb_true_iff in H as [H H3]. apply andb_true_iff in H as [H1 H2].
  apply negb_true_iff in H1, H2, H3. apply Nat.eqb_neq in H1, H2.
  apply tuple_entry_rejected; [exact H1| |exact H3]. intro Hp. rewrite Hp in H2. apply H2. reflexivity.
Qed.

(* the two dataflow rules: flow_guard is the stated condition itself (the loop-nest construction
   that leads to the two raises is not modelled), so these two are immediate *)
Theorem output_only_flattened_loop_rejected : rule_sound r_output_only_flattened_loop.
Proof.
  apply einsum_rule_sound. intros s e H. right. right. unfold flow_guard. rewrite H. discriminate.
Qed.

Theorem project_into_output_rejected : rule_sound r_project_into_output.
Proof.
  apply einsum_rule_sound. intros s e H. right. right.
  unfold flow_guard. destruct (existsb _ _); [discriminate|]. rewrite H. discriminate.
Qed.

Definition well_formed (s : spec) : Prop :=
  forall e, In e (s_einsums s) ->
    e_terms e <> [] /\
    forall en, In en (e_parts e) ->
      pe_ranks en <> [] /\
      forall l tl, pe_parts en = DFollow l :: tl -> part_of (e_parts e) [l] <> None.

Lemma bind_guard_no_crash s : bind_guard s <> Crash.
Proof. unfold bind_guard. destruct (s_bind s); [|discriminate]. destruct (forallb _ _); discriminate. Qed.

Lemma decl_guard_no_crash s : decl_guard s <> Crash.
Proof. unfold decl_guard. destruct (forallb _ _); [|discriminate]. destruct (forallb _ _); discriminate. Qed.

Lemma flow_guard_no_crash s e : flow_guard s e <> Crash.
Proof. unfold flow_guard. destruct (existsb _ _); [discriminate|]. destruct (projects_output s e); discriminate. Qed.

Theorem well_formed_no_crash s : well_formed s -> no_crash s.
Proof.
  intro Hwf. unfold no_crash, stages.
  constructor; [apply bind_guard_no_crash|]. constructor; [apply decl_guard_no_crash|].
  apply Forall_forall. intros r Hr. apply in_flat_map in Hr as [e [He Hr]].
  destruct (Hwf e He) as [Ht Hen]. simpl in Hr. destruct Hr as [<-|[<-|[<-|[]]]].
  - intro Hc. pose proof (eq_guard_spec s e) as H. rewrite Hc in H. contradiction.
  - intro Hc. pose proof (part_guard_spec s e) as H. rewrite Hc in H. destruct H as [en [Hin H]].
    destruct (Hen en Hin) as [Hne Hfol].
    destruct H as [H|[l [tl [Hp Hnone]]]]; [contradiction|exact (Hfol l tl Hp Hnone)].
  - apply flow_guard_no_crash.
Qed.

Theorem violated_iff s n : In n (violated s) <-> exists f, In (n, f) rules /\ f s = true.
Proof.
  unfold violated. rewrite in_map_iff. split.
  - intros [[n' f] [Hn Hin]]. simpl in Hn. subst n'. apply filter_In in Hin as [Hin Hf]. exists f. split; assumption.
  - intros [f [Hin Hf]]. exists (n, f). split; [reflexivity|]. apply filter_In. split; assumption.
Qed.

Lemma rules_sound : Forall (fun nr => rule_sound (snd nr)) rules.
Proof.
  repeat apply Forall_cons; try apply Forall_nil.
  - exact dup_rank_rejected.
  - exact undeclared_tensor_rejected.
  - exact repeated_tensor_rejected.
  - exact term_rank_mismatch_rejected.
  - exact flatten_with_others_rejected.
  - exact flatten_lt2_rejected.
  - exact flatten_index_math_rejected.
  - exact flatten_and_partitioned_rejected.
  - exact flatten_of_flattened_rejected.
  - exact nway_after_occupancy_rejected.
  - exact shape_after_flatten_rejected.
  - exact directive_on_tuple_rejected.
  - exact project_into_output_rejected.
  - exact output_only_flattened_loop_rejected.
  - intros s H _. exists ENoConfig. exact (missing_config_rejected s H).
Qed.

Theorem violated_rejected s : violated s <> [] -> no_crash s -> exists x, guard s = Err x.
Proof.
  intro Hv. destruct (violated s) as [|n l] eqn:E; [congruence|].
  destruct (proj1 (violated_iff s n)) as [f [Hin Hf]]; [rewrite E; left; reflexivity|].
  exact (proj1 (Forall_forall _ _) rules_sound _ Hin s Hf).
Qed.

(* The rules as Prop definitions written from the property text, and the deciders of Model/Legal.v read as them. *)

Definition flatten_entry (en : pentry) : Prop := In DFlatten (pe_parts en).

Lemma flatten_entry_iff en : flatten_entry_b en = true <-> flatten_entry en.
Proof. apply is_flatten_In. Qed.

Definition dup_rank (s : spec) : Prop := exists t rs, In (t, rs) (s_decl s) /\ ~ NoDup rs.

Lemma r_dup_rank_iff s : r_dup_rank s = true <-> dup_rank s.
Proof.
  unfold r_dup_rank, dup_rank. rewrite (existsb_iff _ (fun d => ~ NoDup (snd d))).
  - split; [intros [[t rs] H]; exists t, rs; exact H|intros [t [rs H]]; exists (t, rs); exact H].
  - intro d. rewrite negb_true_iff. apply nodupb_false.
Qed.

Definition undeclared_tensor (s : spec) : Prop :=
  exists e n, In e (s_einsums s) /\ In n (es_names e) /\ ~ In n (map fst (s_decl s)).

Lemma r_undeclared_iff s : r_undeclared s = true <-> undeclared_tensor s.
Proof. apply existsb2_iff. intros e n. rewrite negb_true_iff. apply mem_false. Qed.

Definition repeated_tensor (s : spec) : Prop := exists e, In e (s_einsums s) /\ ~ NoDup (es_names e).

Lemma r_repeated_iff s : r_repeated s = true <-> repeated_tensor s.
Proof. apply existsb_iff. intro e. rewrite negb_true_iff. apply nodupb_false. Qed.

Definition term_rank_mismatch (s : spec) : Prop :=
  exists e t1 t2, In e (s_einsums s) /\ In t1 (e_terms e) /\ In t2 (e_terms e) /\
                  ~ (forall v, In v (term_vars t1) <-> In v (term_vars t2)).

Lemma r_term_mismatch_iff s : r_term_mismatch s = true <-> term_rank_mismatch s.
Proof.
  unfold r_term_mismatch, term_rank_mismatch, any_einsum.
  rewrite (existsb2_iff _ (fun e t1 => exists t2, In t2 (e_terms e) /\
                                       ~ (forall v, In v (term_vars t1) <-> In v (term_vars t2)))).
  - split; [intros (e & t1 & He & H1 & t2 & H); exists e, t1, t2; tauto
           |intros (e & t1 & t2 & He & H1 & H2 & H); exists e, t1; eauto 10].
  - intros e t1. apply existsb_iff. intro t2. rewrite negb_true_iff. apply set_eqb_false.
Qed.

Lemma entry_rule_iff (s : spec) (f : einsum -> pentry -> bool) (P : einsum -> pentry -> Prop) :
  (forall e en, f e en = true <-> P e en) ->
  any_einsum (fun e => existsb (f e) (e_parts e)) s = true <->
  exists e en, In e (s_einsums s) /\ In en (e_parts e) /\ P e en.
Proof. apply existsb2_iff. Qed.

Definition flatten_with_others (s : spec) : Prop :=
  exists e en, In e (s_einsums s) /\ In en (e_parts e) /\ (flatten_entry en /\ 2 <= length (pe_parts en)).

Lemma r_flatten_with_others_iff s : r_flatten_with_others s = true <-> flatten_with_others s.
Proof.
  apply entry_rule_iff.
  intros e en. rewrite andb_true_iff, flatten_entry_iff, Nat.leb_le. reflexivity.
Qed.

Definition flatten_lt2 (s : spec) : Prop :=
  exists e en, In e (s_einsums s) /\ In en (e_parts e) /\ (flatten_entry en /\ length (pe_ranks en) < 2).

Lemma r_flatten_lt2_iff s : r_flatten_lt2 s = true <-> flatten_lt2 s.
Proof.
  apply entry_rule_iff.
  intros e en. rewrite andb_true_iff, flatten_entry_iff, Nat.ltb_lt. reflexivity.
Qed.

(* r takes part in index math: some tensor access relates it, with a non-zero net coefficient, to the
   declared rank D of the position it is written at (expression - D is not identically 0 in r) *)
Definition index_math_rank (s : spec) (e : einsum) (r : string) : Prop :=
  exists a d x, In a (es_accesses e) /\ In (d, x) (combine (decl_ranks s (a_name a)) (a_idx a)) /\
                In r (d :: iexpr_vars x) /\ net_coef d x r <> 0%Z.

Lemma imath_iff s e r : imath s e r = true <-> index_math_rank s e r.
Proof.
  unfold imath, index_math_rank, acc_rel_has.
  rewrite (existsb2_iff _ (fun a dx => In r (fst dx :: iexpr_vars (snd dx)) /\ net_coef (fst dx) (snd dx) r <> 0%Z)).
  - split; [intros (a & [d x] & H); exists a, d, x; exact H|intros (a & d & x & H); exists a, (d, x); exact H].
  - intros a dx. unfold rel_has. rewrite andb_true_iff, negb_true_iff, mem_In, Z.eqb_neq. reflexivity.
Qed.

Definition flatten_index_math (s : spec) : Prop :=
  exists e en, In e (s_einsums s) /\ In en (e_parts e) /\
               (flatten_entry en /\ exists r, In r (pe_ranks en) /\ index_math_rank s e r).

Lemma r_flatten_index_math_iff s : r_flatten_index_math s = true <-> flatten_index_math s.
Proof.
  apply entry_rule_iff.
  intros e en. rewrite andb_true_iff, flatten_entry_iff. apply and_iff_compat_l, existsb_iff, imath_iff.
Qed.

Definition independently_partitioned (entries : list pentry) (r : string) : Prop :=
  exists p ps, part_of entries [r] = Some (p :: ps).

Lemma partitioned_indep_iff entries r : partitioned_indep entries r = true <-> independently_partitioned entries r.
Proof.
  unfold partitioned_indep, independently_partitioned. destruct (part_of entries [r]) as [[|p ps]|]; split;
    try discriminate; try (intros [p' [ps' H]]; discriminate).
  - intros _. exists p, ps. reflexivity.
  - reflexivity.
Qed.

Definition flatten_and_partitioned (s : spec) : Prop :=
  exists e en, In e (s_einsums s) /\ In en (e_parts e) /\
               (flatten_entry en /\ exists r, In r (pe_ranks en) /\ independently_partitioned (e_parts e) r).

Lemma r_flatten_and_partitioned_iff s : r_flatten_and_partitioned s = true <-> flatten_and_partitioned s.
Proof.
  apply entry_rule_iff.
  intros e en. rewrite andb_true_iff, flatten_entry_iff. apply and_iff_compat_l, existsb_iff, partitioned_indep_iff.
Qed.

Definition Holds (ranks : list string) (r : string) : Prop := In r ranks \/ exists x, In x ranks /\ x ++ "0" = r.

Lemma holds_iff ranks r : holds ranks r = true <-> Holds ranks r.
Proof.
  unfold holds, Holds. rewrite orb_true_iff, mem_In. apply or_iff_compat_l, existsb_iff.
  intro x. apply String.eqb_eq.
Qed.

(* a name that only flattening produces *)
Definition derived (orig : list string) (r : string) : Prop :=
  ~ In r orig /\ ~ exists x, In x orig /\ x ++ "0" = r.

Lemma derived_name_holds orig r : derived_name orig r = negb (holds orig r).
Proof. symmetry. apply negb_orb. Qed.

Lemma derived_name_iff orig r : derived_name orig r = true <-> derived orig r.
Proof.
  rewrite derived_name_holds, negb_true_iff, (false_iff _ _ (holds_iff orig r)). unfold derived, Holds. tauto.
Qed.

Definition flatten_of_flattened (s : spec) : Prop :=
  exists e en1 en2, In e (s_einsums s) /\ In en1 (e_parts e) /\ In en2 (e_parts e) /\
    flatten_entry en1 /\ derived (orig_ranks s e) (flat_name en1) /\
    flatten_entry en2 /\ In (flat_name en1) (pe_ranks en2).

Lemma r_flatten_of_flattened_iff s : r_flatten_of_flattened s = true <-> flatten_of_flattened s.
Proof.
  unfold r_flatten_of_flattened, flatten_of_flattened.
  rewrite (entry_rule_iff s _ (fun e en1 => (flatten_entry en1 /\ derived (orig_ranks s e) (flat_name en1)) /\
             exists en2, In en2 (e_parts e) /\ (flatten_entry en2 /\ In (flat_name en1) (pe_ranks en2)))).
  - split; [intros (e & en1 & He & H1 & [Hf Hd] & en2 & H2 & H); exists e, en1, en2; tauto
           |intros (e & en1 & en2 & He & H1 & H2 & Hf & Hd & Hf2 & H); exists e, en1; eauto 10].
  - intros e en1. rewrite !andb_true_iff, flatten_entry_iff, derived_name_iff. apply and_iff_compat_l, existsb_iff.
    intro en2. rewrite andb_true_iff, flatten_entry_iff, mem_In. reflexivity.
Qed.

Lemma occ_then_nway_true ps : occ_then_nway true ps = true <-> In DNway ps.
Proof.
  induction ps as [|p ps IH]; simpl; [split; [discriminate|intros []]|].
  rewrite orb_true_iff, andb_true_r, IH. apply or_iff_compat_r. destruct p; simpl; split; congruence.
Qed.

Lemma occ_then_nway_false ps :
  occ_then_nway false ps = true <-> exists pre l mid post, ps = (pre ++ DUOcc l :: mid ++ DNway :: post)%list.
Proof.
  induction ps as [|p ps IH]; simpl.
  - split; [discriminate|]. intros (pre & l & mid & post & E). destruct pre; discriminate.
  - rewrite andb_false_r. simpl. destruct (is_occ p) eqn:Ep.
    + destruct p; try discriminate. rewrite occ_then_nway_true. split.
      * intro H. apply in_split in H as (mid & post & ->). exists [], leader, mid, post. reflexivity.
      * intros (pre & l & mid & post & E).
        destruct pre; injection E as _ ->; [|apply in_or_app; right; right]; apply in_elt.
    + rewrite IH. split; intros (pre & l & mid & post & E).
      * exists (p :: pre), l, mid, post. rewrite E. reflexivity.
      * destruct pre; injection E as -> E; [discriminate|]. exists pre, l, mid, post. exact E.
Qed.

Definition nway_after_occupancy (s : spec) : Prop :=
  exists e en, In e (s_einsums s) /\ In en (e_parts e) /\
               (exists pre l mid post, pe_parts en = (pre ++ DUOcc l :: mid ++ DNway :: post)%list).

Lemma r_nway_after_occupancy_iff s : r_nway_after_occupancy s = true <-> nway_after_occupancy s.
Proof.
  apply entry_rule_iff. intros e en. apply occ_then_nway_false.
Qed.

(* a shape directive applies to the flattened rank: one of its own list, or of the list of the rank it follows *)
Definition shape_after_flatten (s : spec) : Prop :=
  exists e en1 en2 ps d, In e (s_einsums s) /\ In en1 (e_parts e) /\ In en2 (e_parts e) /\
    flatten_entry en1 /\ ~ In (flat_name en1) (orig_ranks s e) /\ pe_ranks en2 = [flat_name en1] /\
    eff_parts (e_parts e) (pe_parts en2) = Some ps /\ In d ps /\ (d = DUShape \/ d = DNway).

Lemma shape_split_applies_iff entries en :
  shape_split_applies entries en = true <->
  exists ps d, eff_parts entries (pe_parts en) = Some ps /\ In d ps /\ (d = DUShape \/ d = DNway).
Proof.
  unfold shape_split_applies. destruct (eff_parts entries (pe_parts en)) as [ps|].
  - rewrite (existsb_iff _ _ ps is_static_iff).
    split; [intros [d H]; exists ps, d; tauto|intros (ps' & d & E & H); injection E as <-; exists d; exact H].
  - split; [discriminate|intros (ps & d & E & _); discriminate].
Qed.

Lemma r_shape_after_flatten_iff s : r_shape_after_flatten s = true <-> shape_after_flatten s.
Proof.
  unfold r_shape_after_flatten, shape_after_flatten.
  rewrite (entry_rule_iff s _ (fun e en1 => (flatten_entry en1 /\ ~ In (flat_name en1) (orig_ranks s e)) /\
             exists en2, In en2 (e_parts e) /\ (pe_ranks en2 = [flat_name en1] /\
               exists ps d, eff_parts (e_parts e) (pe_parts en2) = Some ps /\ In d ps /\ (d = DUShape \/ d = DNway)))).
  - split; [intros (e & en1 & He & H1 & [Hf Hno] & en2 & H2 & Hk & ps & d & H); exists e, en1, en2, ps, d; tauto
           |intros (e & en1 & en2 & ps & d & He & H1 & H2 & Hf & Hno & Hk & Hps & Hd & H); exists e, en1; eauto 15].
  - intros e en1. rewrite !andb_true_iff, flatten_entry_iff, negb_true_iff, mem_false. apply and_iff_compat_l, existsb_iff.
    intro en2. rewrite andb_true_iff, strs_eqb_eq, shape_split_applies_iff. reflexivity.
Qed.

Definition directive_on_tuple (s : spec) : Prop :=
  exists e en, In e (s_einsums s) /\ In en (e_parts e) /\
               (length (pe_ranks en) <> 1 /\ pe_parts en <> [] /\ ~ flatten_entry en).

Lemma r_directive_on_tuple_iff s : r_directive_on_tuple s = true <-> directive_on_tuple s.
Proof.
  apply entry_rule_iff.
  intros e en. rewrite !andb_true_iff, !negb_true_iff, !Nat.eqb_neq, (false_iff _ _ (flatten_entry_iff en)), <- and_assoc.
  apply and_iff_compat_r, and_iff_compat_l, not_iff_compat. apply length_zero_iff_nil.
Qed.

(* an entry of the bindings (one per Einsum) none of whose items has a `config` key *)
Definition missing_config (s : spec) : Prop :=
  exists bs b, s_bind s = Some bs /\ In b bs /\ forall c, In c (snd b) -> c = false.

Lemma r_missing_config_iff s : r_missing_config s = true <-> missing_config s.
Proof.
  unfold r_missing_config, missing_config. destruct (s_bind s) as [bs|].
  - rewrite (existsb_iff _ (fun b => forall c, In c (snd b) -> c = false)).
    + split; [intros [b H]; exists bs, b; tauto|intros (bs' & b & E & H); injection E as <-; exists b; exact H].
    + intro b. rewrite negb_true_iff, (false_iff _ _ (existsb_exists _ _)). split.
      * intros H c Hc. apply not_true_is_false. intro Ht. apply H. exists c. split; assumption.
      * intros H [c [Hc Ht]]. rewrite (H c Hc) in Ht. discriminate.
  - split; [discriminate|intros (bs & b & E & _); discriminate].
Qed.

Definition iterated (e : einsum) (r : string) : Prop :=
  match e_loop e with Some l => In r l | None => True end.

Lemma in_loop_iff e r : in_loop e r = true <-> iterated e r.
Proof. unfold in_loop, iterated. destruct (e_loop e); [apply mem_In|tauto]. Qed.

(* the flattened rank is iterated; the output holds every rank of the tuple; every input lacks one *)
Definition output_only_flattened_loop (s : spec) : Prop :=
  exists e en, In e (s_einsums s) /\ In en (e_parts e) /\ flatten_entry en /\
    iterated e (flat_name en) /\
    (forall r, In r (pe_ranks en) -> Holds (eff_ranks s (a_name (e_out e))) r) /\
    (forall a, In a (concat (e_terms e)) -> exists r, In r (pe_ranks en) /\ ~ Holds (eff_ranks s (a_name a)) r).

Lemma holds_all_iff ranks T : holds_all ranks T = true <-> forall r, In r T -> Holds ranks r.
Proof. apply forallb_iff. intro r. apply holds_iff. Qed.

Lemma not_holds_all_iff ranks T : holds_all ranks T = false <-> exists r, In r T /\ ~ Holds ranks r.
Proof.
  unfold holds_all. rewrite <- negb_true_iff, <- existsb_negb_forallb. apply existsb_iff.
  intro r. rewrite negb_true_iff. apply false_iff, holds_iff.
Qed.

Lemma In_flat_entries T entries :
  In T (flat_entries entries) <-> exists en, In en entries /\ flatten_entry en /\ pe_ranks en = T.
Proof.
  unfold flat_entries. rewrite in_map_iff.
  split; intros [en H]; exists en; rewrite filter_In, is_flatten_In in *; unfold flatten_entry; tauto.
Qed.

Lemma r_output_only_flattened_loop_iff s : r_output_only_flattened_loop s = true <-> output_only_flattened_loop s.
Proof.
  unfold r_output_only_flattened_loop, output_only_flattened_loop, any_einsum.
  rewrite (existsb2_iff _ (fun e T => iterated e (String.concat "" T) /\
             (forall r, In r T -> Holds (eff_ranks s (a_name (e_out e))) r) /\
             (forall a, In a (concat (e_terms e)) -> exists r, In r T /\ ~ Holds (eff_ranks s (a_name a)) r))).
  - split.
    + intros (e & T & He & HT & H). apply In_flat_entries in HT as (en & Hen & Hf & <-). exists e, en. tauto.
    + intros (e & en & He & Hen & Hf & H). exists e, (pe_ranks en). split; [exact He|]. split; [|exact H].
      apply In_flat_entries. exists en. auto.
  - intros e T. unfold output_only_flat. rewrite !andb_true_iff, in_loop_iff, holds_all_iff, <- and_assoc.
    apply and_iff_compat_l, forallb_iff. intro a. rewrite negb_true_iff. apply not_holds_all_iff.
Qed.

(* an output rank that takes part in index math is not iterated by the explicit loop order (under the name of its
   innermost level): its coordinate would be projected from the ranks that are iterated *)
Definition project_into_output (s : spec) : Prop :=
  exists e l q, In e (s_einsums s) /\ e_loop e = Some l /\ In q (acc_vars (e_out e)) /\
                index_math_rank s e q /\ ~ In (innermost (e_parts e) q) l.

Lemma projects_output_iff s e :
  projects_output s e = true <->
  exists l q, e_loop e = Some l /\ In q (acc_vars (e_out e)) /\ index_math_rank s e q /\ ~ In (innermost (e_parts e) q) l.
Proof.
  unfold projects_output. destruct (e_loop e) as [l|].
  - rewrite (existsb_iff _ (fun q => index_math_rank s e q /\ ~ In (innermost (e_parts e) q) l)).
    + split; [intros [q H]; exists l, q; tauto|intros (l' & q & E & H); injection E as <-; exists q; exact H].
    + intro q. rewrite andb_true_iff, negb_true_iff, imath_iff, mem_false. reflexivity.
  - split; [discriminate|intros (l & q & E & _); discriminate].
Qed.

Lemma r_project_into_output_iff s : r_project_into_output s = true <-> project_into_output s.
Proof.
  unfold r_project_into_output, project_into_output, any_einsum. rewrite (existsb_iff _ _ _ (projects_output_iff s)).
  split; [intros (e & He & l & q & H); exists e, l, q; tauto
         |intros (e & l & q & He & H); exists e; split; [exact He|exists l, q; exact H]].
Qed.

Lemma rejected_P (r : spec -> bool) (P : spec -> Prop) :
  (forall s, r s = true <-> P s) -> rule_sound r -> forall s, no_crash s -> P s -> exists x, guard s = Err x.
Proof. intros Hiff Hr s Hnc HP. exact (Hr s (proj2 (Hiff s) HP) Hnc). Qed.

Section PropForms.
Variable s : spec.
Hypothesis Hnc : no_crash s.

Theorem dup_rank_rejected_P : dup_rank s -> exists x, guard s = Err x.
Proof. exact (rejected_P _ _ r_dup_rank_iff dup_rank_rejected s Hnc). Qed.
Theorem undeclared_tensor_rejected_P : undeclared_tensor s -> exists x, guard s = Err x.
Proof. exact (rejected_P _ _ r_undeclared_iff undeclared_tensor_rejected s Hnc). Qed.
Theorem repeated_tensor_rejected_P : repeated_tensor s -> exists x, guard s = Err x.
Proof. exact (rejected_P _ _ r_repeated_iff repeated_tensor_rejected s Hnc). Qed.
Theorem term_rank_mismatch_rejected_P : term_rank_mismatch s -> exists x, guard s = Err x.
Proof. exact (rejected_P _ _ r_term_mismatch_iff term_rank_mismatch_rejected s Hnc). Qed.
Theorem flatten_with_others_rejected_P : flatten_with_others s -> exists x, guard s = Err x.
Proof. exact (rejected_P _ _ r_flatten_with_others_iff flatten_with_others_rejected s Hnc). Qed.
Theorem flatten_lt2_rejected_P : flatten_lt2 s -> exists x, guard s = Err x.
Proof. exact (rejected_P _ _ r_flatten_lt2_iff flatten_lt2_rejected s Hnc). Qed.
Theorem flatten_index_math_rejected_P : flatten_index_math s -> exists x, guard s = Err x.
Proof. exact (rejected_P _ _ r_flatten_index_math_iff flatten_index_math_rejected s Hnc). Qed.
Theorem flatten_and_partitioned_rejected_P : flatten_and_partitioned s -> exists x, guard s = Err x.
Proof. exact (rejected_P _ _ r_flatten_and_partitioned_iff flatten_and_partitioned_rejected s Hnc). Qed.
Theorem flatten_of_flattened_rejected_P : flatten_of_flattened s -> exists x, guard s = Err x.
Proof. exact (rejected_P _ _ r_flatten_of_flattened_iff flatten_of_flattened_rejected s Hnc). Qed.
Theorem nway_after_occupancy_rejected_P : nway_after_occupancy s -> exists x, guard s = Err x.
Proof. exact (rejected_P _ _ r_nway_after_occupancy_iff nway_after_occupancy_rejected s Hnc). Qed.
Theorem shape_after_flatten_rejected_P : shape_after_flatten s -> exists x, guard s = Err x.
Proof. exact (rejected_P _ _ r_shape_after_flatten_iff shape_after_flatten_rejected s Hnc). Qed.
Theorem directive_on_tuple_rejected_P : directive_on_tuple s -> exists x, guard s = Err x.
Proof. exact (rejected_P _ _ r_directive_on_tuple_iff directive_on_tuple_rejected s Hnc). Qed.
Theorem project_into_output_rejected_P : project_into_output s -> exists x, guard s = Err x.
Proof. exact (rejected_P _ _ r_project_into_output_iff project_into_output_rejected s Hnc). Qed.
Theorem output_only_flattened_loop_rejected_P : output_only_flattened_loop s -> exists x, guard s = Err x.
Proof. exact (rejected_P _ _ r_output_only_flattened_loop_iff output_only_flattened_loop_rejected s Hnc). Qed.
End PropForms.

Theorem missing_config_rejected_P s : missing_config s -> guard s = Err ENoConfig.
Proof. intro H. apply missing_config_rejected. apply r_missing_config_iff. exact H. Qed.

Theorem deciders_exact s :
  (r_dup_rank s = true <-> dup_rank s) /\ (r_undeclared s = true <-> undeclared_tensor s) /\
  (r_repeated s = true <-> repeated_tensor s) /\ (r_term_mismatch s = true <-> term_rank_mismatch s) /\
  (r_flatten_with_others s = true <-> flatten_with_others s) /\ (r_flatten_lt2 s = true <-> flatten_lt2 s) /\
  (r_flatten_index_math s = true <-> flatten_index_math s) /\
  (r_flatten_and_partitioned s = true <-> flatten_and_partitioned s) /\
  (r_flatten_of_flattened s = true <-> flatten_of_flattened s) /\
  (r_nway_after_occupancy s = true <-> nway_after_occupancy s) /\
  (r_shape_after_flatten s = true <-> shape_after_flatten s) /\
  (r_directive_on_tuple s = true <-> directive_on_tuple s) /\
  (r_project_into_output s = true <-> project_into_output s) /\
  (r_output_only_flattened_loop s = true <-> output_only_flattened_loop s) /\
  (r_missing_config s = true <-> missing_config s).
Proof.
  exact (conj (r_dup_rank_iff s) (conj (r_undeclared_iff s) (conj (r_repeated_iff s) (conj (r_term_mismatch_iff s)
        (conj (r_flatten_with_others_iff s) (conj (r_flatten_lt2_iff s) (conj (r_flatten_index_math_iff s)
        (conj (r_flatten_and_partitioned_iff s) (conj (r_flatten_of_flattened_iff s) (conj (r_nway_after_occupancy_iff s)
        (conj (r_shape_after_flatten_iff s) (conj (r_directive_on_tuple_iff s) (conj (r_project_into_output_iff s)
        (conj (r_output_only_flattened_loop_iff s) (r_missing_config_iff s))))))))))))))).
Qed.
