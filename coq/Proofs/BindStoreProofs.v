From Coq Require Import String List.
Require Import TV.Model.BindStore.
Import ListNotations.
Open Scope string_scope.

(* with a private copy, building a component leaves the parsed store exactly as it was, so compiling again from
   the same objects sees the same bindings *)
Theorem build_copy_pure fmt ranks types st n : snd (build true fmt ranks types st n) = st.
Proof. reflexivity. Qed.

Theorem build_all_pure fmt ranks types (ns : list string) st :
  fold_left (fun s n => snd (build true fmt ranks types s n)) ns st = st.
Proof. induction ns as [|n ns IH]; cbn [fold_left]; [reflexivity|]. rewrite build_copy_pure. exact IH. Qed.

Theorem build_repeatable fmt ranks types st n :
  fst (build true fmt ranks types (snd (build true fmt ranks types st n)) n) = fst (build true fmt ranks types st n).
Proof. reflexivity. Qed.

(* finding F2, the dictionaries shared: the store is changed, and the second construction sees other bindings *)
Definition f2_store : store :=
  [("RegFile", [[("tensor", "Z"); ("rank", "M"); ("type", "coord"); ("format", "default"); ("evict-on", "root"); ("style", "eager")]])].

Theorem shared_build_refuted :
  exists st n fmt ranks types,
    snd (build false fmt ranks types st n) <> st /\
    fst (build false fmt ranks types (snd (build false fmt ranks types st n)) n) <> fst (build false fmt ranks types st n).
Proof.
  exists f2_store, "RegFile", "default", ["M"; "N"], [["coord"; "payload"]; ["coord"; "payload"]].
  split; vm_compute; discriminate.
Qed.
