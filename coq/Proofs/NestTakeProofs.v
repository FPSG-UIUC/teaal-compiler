(* C01: the loop nest with take() terms.  For ANY loop order, ANY number of product and take terms, ANY input tries
   with non-zero stored leaves: if every take's selected operand holds every loop rank, the nest as emitted (the update
   adds the selected operand's leaf) contributes at every point exactly the Einsum's value; without that side condition
   it does not (finding F7: runS_take_unsafe_refuted). *)
From Coq Require Import ZArith List Bool Lia String.
Require Import TV.Proofs.ListFacts TV.Model.Nest TV.Proofs.NestProofs TV.Model.NestTake.
Import ListNotations.
Open Scope Z_scope.

Lemma nonzero_term_den p tm : forallb (nonzero_at p) tm = negb (term_den tm p =? 0).
Proof.
  induction tm as [|t tm IH]; [reflexivity|]. cbn [forallb]. rewrite term_den_cons, IH. unfold nonzero_at. rewrite <- negb_orb. f_equal.
  apply eq_true_iff_eq. rewrite orb_true_iff, !Z.eqb_eq. symmetry. apply Z.mul_eq_0.
Qed.

Lemma sden_dead r c st p : p r = c -> term_alive r c (snd st) = false -> sden st p = 0.
Proof.
  intros Hp Hal. unfold sden. pose proof (term_den_dead r c (snd st) p Hp Hal) as Hz.
  destruct (fst st); [|exact Hz]. rewrite nonzero_term_den, Hz. reflexivity.
Qed.

Lemma sden_step : forall r c st p, p r = c -> sden (fst st, step_term r c (snd st)) p = sden st p.
Proof.
  intros r c [s tm] p Hp. unfold sden; cbn [fst snd]. destruct s as [i|]; [|apply term_den_step; exact Hp].
  rewrite !nonzero_term_den, (term_den_step r c tm p Hp).
  destruct (Z.eqb_spec (term_den tm p) 0) as [|Hnz]; [reflexivity|]. cbn [negb].
  (* a non-zero term is alive at c, so the selected operand was advanced and kept its value *)
  destruct (term_alive r c tm) eqn:Hal; [|destruct Hnz; apply (term_den_dead r c tm p Hp Hal)].
  rewrite (step_term_alive r c tm Hal), (nth_map_fixed (stepf r c) dummy_t tm i eq_refl).
  destruct (nth_in_or_default i tm dummy_t) as [Hin| ->]; [apply (alive_den_pres r c tm p _ Hp Hal Hin)|reflexivity].
Qed.

Definition stepS (r : rank) (c : coord) (sts : list sterm) : list sterm :=
  map (fun st => (fst st, step_term r c (snd st))) sts.

Lemma map_snd_stepS r c sts : map snd (stepS r c sts) = map (step_term r c) (map snd sts).
Proof. unfold stepS. rewrite !map_map. reflexivity. Qed.

Lemma sbody_den_step : forall r c sts p, p r = c -> sbody_den (stepS r c sts) p = sbody_den sts p.
Proof. intros r c sts p Hp. apply fold_map_ext. intros st _. apply sden_step. exact Hp. Qed.

Lemma sbody_den_all_dead : forall r c sts p, p r = c -> existsb (term_alive r c) (map snd sts) = false -> sbody_den sts p = 0.
Proof.
  intros r c sts p Hp H. apply sum_zero. intros st Hst. apply (sden_dead r c st p Hp).
  apply (existsb_false_In _ (map snd sts)); [exact H|apply in_map; exact Hst].
Qed.

(* What a take term keeps true down the nest: the selected operand holds exactly the loop ranks still to come, every
   operand is a structural default (of a killed term) or a proper sub-trie, and if any operand is a default the selected
   one is too - so at the bottom the selected leaf is 0 exactly where the term's value is. *)
Definition okop (t : tstate) : bool := isdef t || goodb (rem t) (cur t).

Definition TInv (L : list rank) (st : sterm) : Prop :=
  match fst st with
  | None => True
  | Some i => (i < List.length (snd st))%nat /\ rem (nth i (snd st) dummy_t) = L /\
              forallb okop (snd st) = true /\
              (existsb isdef (snd st) = true -> isdef (nth i (snd st) dummy_t) = true)
  end.

Lemma good_not_def t : goodb (rem t) (cur t) = true -> isdef t = false.
Proof.
  destruct t as [rs cu]. unfold isdef; cbn [rem cur]. destruct rs as [|r rs], cu as [v|l]; cbn [goodb]; intros H; try discriminate.
  - apply negb_true_iff in H. exact H.
  - destruct l; [discriminate|reflexivity].
Qed.

Lemma good_okop t : goodb (rem t) (cur t) = true -> okop t = true.
Proof. intros H. unfold okop. rewrite H. apply orb_true_r. Qed.

Lemma isdef_kill r t : participates r t = true -> isdef (kill t) = true.
Proof. intros Hp. destruct (kill_spec r t Hp) as (rs & _ & ->). destruct rs; reflexivity. Qed.

Lemma isdef_no_coord r c t : participates r t = true -> isdef t = true -> has_coord c t = false.
Proof.
  intros Hp. destruct (participates_inv r t Hp) as [rs E]. unfold isdef, has_coord. rewrite E.
  destruct (cur t) as [v|[|ct l]]; [reflexivity|reflexivity|discriminate].
Qed.

Lemma alive_not_def r c tm t : term_alive r c tm = true -> In t tm -> participates r t = true -> isdef t = false.
Proof.
  intros Hal Hin Hp. apply not_true_is_false. intros Hd.
  pose proof (alive_has_coord r c tm t Hal Hin Hp) as Hc. rewrite (isdef_no_coord r c t Hp Hd) in Hc. discriminate.
Qed.

Lemma good_advance r c t : participates r t = true -> has_coord c t = true -> goodb (rem t) (cur t) = true ->
  goodb (rem (advance c t)) (cur (advance c t)) = true.
Proof.
  intros Hp Hc. destruct (advance_spec r c t Hp Hc) as (rs & l & t' & -> & E & ->). cbn [rem cur goodb].
  intros H. apply andb_true_iff in H as [_ H]. rewrite forallb_forall in H. exact (H _ (lookup_some_in c l t' E)).
Qed.

Lemma good_stepf r c tm t : term_alive r c tm = true -> In t tm -> participates r t = true -> okop t = true ->
  goodb (rem (stepf r c t)) (cur (stepf r c t)) = true.
Proof.
  intros Hal Hin Hp Hok. rewrite (stepf_part r c t Hp). apply orb_true_iff in Hok as [Hd|Hg].
  - rewrite (alive_not_def r c tm t Hal Hin Hp) in Hd. discriminate.
  - apply (good_advance r c t Hp (alive_has_coord r c tm t Hal Hin Hp) Hg).
Qed.

Lemma okop_stepf r c tm t : term_alive r c tm = true -> In t tm -> okop t = true -> okop (stepf r c t) = true.
Proof.
  intros Hal Hin Hok. destruct (participates r t) eqn:Hp.
  - apply good_okop, (good_stepf r c tm t Hal Hin Hp Hok).
  - rewrite (stepf_other r c t Hp). exact Hok.
Qed.

Lemma okop_killf r t : okop t = true -> okop (killf r t) = true.
Proof.
  intros Hok. destruct (participates r t) eqn:Hp; [|rewrite (killf_other r t Hp); exact Hok].
  unfold okop. rewrite (killf_part r t Hp), (isdef_kill r t Hp). reflexivity.
Qed.

(* Alive: nothing is a default afterwards, since a default left alone would make the selected operand (a participant,
   as it holds r) a default.  Dead: the selected operand is among the killed, so it is a default. *)
Lemma TInv_step : forall r L c st, TInv (r :: L) st -> TInv L (fst st, step_term r c (snd st)).
Proof.
  intros r L c [s tm]. unfold TInv; cbn [fst snd]. destruct s as [i|]; [|trivial].
  intros (Hi & Hrem & Hok & HJ). set (sel := nth i tm dummy_t) in *. rewrite forallb_forall in Hok.
  assert (Hsel_in : In sel tm) by (apply nth_In; exact Hi).
  pose proof (participates_cons r L sel Hrem) as Hsp.
  destruct (term_alive r c tm) eqn:Hal.
  - rewrite (step_term_alive r c tm Hal), map_length, (nth_map_fixed (stepf r c) dummy_t tm i eq_refl). fold sel.
    rewrite (stepf_part r c sel Hsp). split; [exact Hi|]. split; [|split].
    + rewrite rem_advance, Hrem. reflexivity.
    + apply forallb_map_Forall, Forall_forall. intros t Hin. apply (okop_stepf r c tm t Hal Hin (Hok t Hin)).
    + intros Hex. exfalso. apply existsb_exists in Hex as (t' & Hin' & Hd'). apply in_map_iff in Hin' as (t & <- & Hin).
      destruct (participates r t) eqn:Hp.
      * rewrite (good_not_def _ (good_stepf r c tm t Hal Hin Hp (Hok t Hin))) in Hd'. discriminate.
      * rewrite (stepf_other r c t Hp) in Hd'.
        rewrite (alive_not_def r c tm sel Hal Hsel_in Hsp) in HJ. discriminate HJ. apply existsb_exists. eauto.
  - rewrite (step_term_dead r c tm Hal), map_length, (nth_map_fixed (killf r) dummy_t tm i eq_refl). fold sel.
    rewrite (killf_part r sel Hsp). split; [exact Hi|]. split; [|split].
    + rewrite rem_kill, Hrem. reflexivity.
    + apply forallb_map_Forall, Forall_forall. intros t Hin. apply (okop_killf r t (Hok t Hin)).
    + intros _. apply (isdef_kill r sel Hsp).
Qed.

Lemma bottom_nonzero p t : okop t = true -> rem t = [] -> nonzero_at p t = negb (isdef t).
Proof.
  intros Hok E. unfold nonzero_at. rewrite (den_bottom t p E). unfold okop, isdef, leaf_val in *. rewrite E in *.
  destruct (cur t); [reflexivity|discriminate].
Qed.

(* at the bottom the update's operand is the term's value: if some operand is zero there it is a default, hence so is
   the selected operand, and both sides are 0 *)
Lemma take_bottom i tm p : (i < List.length tm)%nat -> forallb okop tm = true ->
  (existsb isdef tm = true -> isdef (nth i tm dummy_t) = true) ->
  (forall t, In t tm -> rem t = []) -> sden (Some i, tm) p = sleaf (Some i, tm).
Proof.
  intros Hi Hok HJ Hbot. unfold sden, sleaf; cbn [fst snd]. set (sel := nth i tm dummy_t) in *.
  assert (Hsel : rem sel = []) by (apply Hbot, nth_In, Hi). rewrite (den_bottom sel p Hsel).
  destruct (existsb isdef tm) eqn:Hex.
  - specialize (HJ eq_refl). unfold isdef in HJ. rewrite Hsel in HJ. unfold leaf_val.
    destruct (cur sel) as [v|l]; [|discriminate]. apply Z.eqb_eq in HJ as ->. destruct (forallb (nonzero_at p) tm); reflexivity.
  - replace (forallb (nonzero_at p) tm) with true; [reflexivity|]. symmetry. apply forallb_forall. intros t Ht.
    rewrite forallb_forall in Hok. rewrite (bottom_nonzero p t (Hok t Ht) (Hbot t Ht)).
    rewrite (existsb_false_In isdef tm t Hex Ht). reflexivity.
Qed.

Lemma TInv_bottom : forall st p, TInv [] st -> (forall t, In t (snd st) -> rem t = []) -> sden st p = sleaf st.
Proof.
  intros [[i|] tm] p; cbn [snd]; [|intros _; apply term_leaf_den].
  intros (Hi & _ & Hok & HJ). apply take_bottom; assumption.
Qed.

Lemma runS_is_nest : runS = nest (map snd) stepS (fun sts => [([], fold_right (fun st acc => sleaf st + acc) 0 sts)]).
Proof. reflexivity. Qed.

Theorem runS_sound : forall L sts, wf L (map snd sts) -> Forall (TInv L) sts ->
  forall p, sum_at p (runS L sts) = sbody_den sts p.
Proof.
  rewrite runS_is_nest. apply (nest_sum _ _ _ (fun L => Forall (TInv L)) sbody_den map_snd_stepS).
  - intros r L c sts H _. apply Forall_map. revert H. apply Forall_impl. intros st. apply TInv_step.
  - apply sbody_den_step.
  - apply sbody_den_all_dead.
  - intros sts p Hinv Hbot. rewrite sum_at_leaf. apply fold_ext. intros st Hst. symmetry.
    rewrite Forall_forall in Hinv. apply (TInv_bottom st p (Hinv st Hst)). apply Hbot, in_map, Hst.
Qed.

Lemma ranks_eqb_eq a b : ranks_eqb a b = true <-> a = b.
Proof. apply (list_eqb_iff String.eqb); [apply String.eqb_eq|intros [|] [|]; reflexivity]. Qed.

Lemma all_good_no_def tm : forallb (fun t => goodb (rem t) (cur t)) tm = true -> existsb isdef tm = false.
Proof. rewrite forallb_forall, existsb_false_iff. intros H t Ht. apply good_not_def, H, Ht. Qed.

Lemma all_good_okop tm : forallb (fun t => goodb (rem t) (cur t)) tm = true -> forallb okop tm = true.
Proof. rewrite !forallb_forall. intros H t Ht. apply good_okop, H, Ht. Qed.

Lemma TInv_entry L s tm : take_okb L s (map rem tm) = true -> forallb (fun t => goodb (rem t) (cur t)) tm = true -> TInv L (s, tm).
Proof.
  unfold TInv, take_okb; cbn [fst snd]. destruct s as [i|]; [|trivial]. intros H Hg.
  apply andb_true_iff in H as [H1 H2]. rewrite map_length in H1. apply Nat.ltb_lt in H1.
  apply ranks_eqb_eq in H2. change (@nil rank) with (rem dummy_t) in H2. rewrite map_nth in H2.
  split; [exact H1|]. split; [exact H2|]. split; [apply all_good_okop, Hg|].
  rewrite (all_good_no_def tm Hg). discriminate.
Qed.

Lemma combine_map_snd {A B} (a : list A) (b : list B) : List.length a = List.length b -> map snd (combine a b) = b.
Proof. revert b; induction a as [|x a IH]; intros [|y b] H; cbn in *; try discriminate; [reflexivity|]. f_equal. apply IH. lia. Qed.

Lemma combine_map_snd' (a : list (option nat)) (b : list term) : List.length a = List.length b ->
  @map sterm term (@snd (option nat) term) (combine a b) = b.
Proof. exact (combine_map_snd a b). Qed.

Lemma takes_okb_length L sels (tms : list term) : takes_okb L sels (map (map rem) tms) = true -> List.length sels = List.length tms.
Proof. intros H. apply andb_true_iff in H as [H _]. apply Nat.eqb_eq in H. rewrite map_length in H. exact H. Qed.

(* certified validation of an emitted program whose terms are products and take()s *)
Theorem nest_take_okb_sound : forall L sels tms views,
  nest_okb L (map (map rem) tms) views = true ->
  takes_okb L sels (map (map rem) tms) = true ->
  forallb (forallb (fun t => goodb (rem t) (cur t))) tms = true ->
  views = expected_views L (map (map rem) tms) /\
  forall p, sum_at p (runS L (combine sels tms)) = sbody_den (combine sels tms) p.
Proof.
  intros L sels tms views H1 H2 H3. split; [apply (nest_okb_sound L tms views H1)|].
  pose proof (takes_okb_length L sels tms H2) as Hlen. apply andb_true_iff in H2 as [_ Hall].
  apply runS_sound.
  - pose proof (nest_okb_wf L tms views H1) as Hw. rewrite <- (combine_map_snd sels tms Hlen) in Hw. exact Hw.
  - apply Forall_forall. intros [s tm] Hin. rewrite combine_map_r, forallb_forall in Hall. rewrite forallb_forall in H3.
    apply TInv_entry; [apply (Hall _ (in_map _ _ _ Hin))|apply H3, (in_combine_r _ _ _ _ Hin)].
Qed.

(* finding F7: without the side condition the emitted nest is wrong.
   Z[m] = A[m] + take(B[], C[m], 0), loop [M]:  A = {0: 1}, B = 5, C = {1: 2}.  At m = 0 only the first term is alive; the
   take term dies (C lacks 0), C is killed, but the selected operand B (rank-0, not a participant) keeps its value and
   the update adds it: the nest contributes 6 where the Einsum defines 1. *)
Definition f7_terms : list term :=
  [[{| rem := ["M"%string]; cur := Node [(0, Leaf 1)] |}];
   [{| rem := []; cur := Leaf 5 |}; {| rem := ["M"%string]; cur := Node [(1, Leaf 2)] |}]].
Definition f7_sels : list (option nat) := [None; Some 0%nat].

Theorem runS_take_unsafe_refuted :
  swf ["M"%string] (map (map rem) f7_terms) = true /\
  forallb (forallb (fun t => goodb (rem t) (cur t))) f7_terms = true /\
  takes_okb ["M"%string] f7_sels (map (map rem) f7_terms) = false /\
  exists p, sum_at p (runS ["M"%string] (combine f7_sels f7_terms)) <> sbody_den (combine f7_sels f7_terms) p.
Proof.
  split; [reflexivity|]. split; [reflexivity|]. split; [reflexivity|].
  exists (fun _ => 0). vm_compute. discriminate.
Qed.

(* non-vacuity of nest_take_okb_sound: Z[m] = A[m] + take(B[m], C[m], 1) with proper inputs *)
Example nest_take_okb_example :
  let tms := [[{| rem := ["M"%string]; cur := Node [(0, Leaf 1)] |}];
              [{| rem := ["M"%string]; cur := Node [(0, Leaf 5); (1, Leaf 7)] |}; {| rem := ["M"%string]; cur := Node [(1, Leaf 2)] |}]] in
  nest_okb ["M"%string] (map (map rem) tms) [("M"%string, [[0%nat]; [0%nat; 1%nat]])] = true /\
  takes_okb ["M"%string] [None; Some 1%nat] (map (map rem) tms) = true /\
  forallb (forallb (fun t => goodb (rem t) (cur t))) tms = true.
Proof. repeat split. Qed.

Lemma sleaf_okb_eval : forall lv sels tms, sleaf_okb lv sels (map (@List.length _) tms) = true ->
  leaf_eval lv tms = fold_right (fun st acc => sleaf st + acc) 0 (combine sels tms).
Proof.
  induction lv as [|ps lv IH]; intros [|s sels] [|tm tms] H; cbn [map sleaf_okb] in H; try discriminate; [reflexivity|].
  apply andb_true_iff in H as [H1 H2]. apply nats_eqb_eq in H1. subst ps.
  cbn [leaf_eval combine fold_right]. rewrite (IH sels tms H2). f_equal.
  unfold sleaf; cbn [fst snd]. destruct s as [i|]; [|apply leaf_term_eval_all].
  unfold leaf_term_eval. cbn [fold_right]. lia.
Qed.

Theorem run_lv_eq_S : forall lv sels L (tms : list term), List.length sels = List.length tms ->
  sleaf_okb lv sels (map (@List.length _) tms) = true -> run_lv lv L tms = runS L (combine sels tms).
Proof.
  intros lv sels L. induction L as [|r L IH]; intros tms Hlen H; cbn [run_lv runS].
  - rewrite (sleaf_okb_eval lv sels tms H). reflexivity.
  - rewrite (combine_map_snd sels tms Hlen). apply flat_map_ext. intros c. rewrite <- combine_map_r. rewrite IH; [reflexivity|rewrite map_length; exact Hlen|rewrite lengths_step; exact H].
Qed.

Theorem nest_result_acc_S : forall acc L out sts o, op_okb acc L out = true ->
  nest_result acc out o (runS L sts) = out_sum_at out o (runS L sts).
Proof. rewrite runS_is_nest. intros acc L out sts o. apply leaf_nest_result_acc. Qed.

(* certified validation of a whole emitted program with product and take terms, update statement included *)
Theorem nest_take_full_okb_sound : forall L sels tms views acc lv out,
  nest_take_full_okb L (map (map rem) tms) views sels acc lv out = true ->
  forallb (forallb (fun t => goodb (rem t) (cur t))) tms = true ->
  views = expected_views L (map (map rem) tms) /\
  (forall o, nest_result acc out o (run_lv lv L tms) = out_sum_at out o (runS L (combine sels tms))) /\
  (forall p, sum_at p (runS L (combine sels tms)) = sbody_den (combine sels tms) p).
Proof.
  intros L sels tms views acc lv out H Hg. unfold nest_take_full_okb in H.
  apply andb_true_iff in H as [H H4]. apply andb_true_iff in H as [H H3]. apply andb_true_iff in H as [H1 H2].
  destruct (nest_take_okb_sound L sels tms views H1 H2 Hg) as [Hv Hs]. split; [exact Hv|]. split; [|exact Hs].
  intros o. rewrite lengths_rems in H3.
  rewrite (run_lv_eq_S lv sels L tms (takes_okb_length L sels tms H2) H3). apply nest_result_acc_S. exact H4.
Qed.

(* a single take term needs no side condition on the selected operand: with one term the nest only visits coordinates
   at which the term is alive, so no operand is ever killed *)
Definition TInv1 (st : sterm) : Prop :=
  forallb (fun t => goodb (rem t) (cur t)) (snd st) = true /\
  match fst st with None => True | Some i => (i < List.length (snd st))%nat end.

Lemma TInv1_step r c st : term_alive r c (snd st) = true -> TInv1 st -> TInv1 (fst st, step_term r c (snd st)).
Proof.
  destruct st as [s tm]. unfold TInv1; cbn [fst snd]. intros Hal [Hg Hi]. rewrite (step_term_alive r c tm Hal). split.
  - apply forallb_map_Forall, Forall_forall. intros t Hin. rewrite forallb_forall in Hg. destruct (participates r t) eqn:Hp.
    + apply (good_stepf r c tm t Hal Hin Hp). apply good_okop, Hg, Hin.
    + rewrite (stepf_other r c t Hp). apply Hg, Hin.
  - destruct s; [rewrite map_length; exact Hi|exact I].
Qed.

Lemma TInv1_bottom st p : TInv1 st -> (forall t, In t (snd st) -> rem t = []) -> sden st p = sleaf st.
Proof.
  destruct st as [[i|] tm]; cbn [snd]; intros [Hg Hi]; [|apply term_leaf_den].
  apply take_bottom; [exact Hi|apply all_good_okop, Hg|]. rewrite (all_good_no_def tm Hg). discriminate.
Qed.

Theorem runS1_sound : forall L st, wf L [snd st] -> TInv1 st -> forall p, sum_at p (runS L [st]) = sden st p.
Proof.
  intros L st Hwf Hinv p. rewrite runS_is_nest, <- (Z.add_0_r (sden st p)).
  apply (nest_sum _ _ _ (fun _ sts => exists st, sts = [st] /\ TInv1 st) sbody_den map_snd_stepS); eauto.
  - intros r _ c _ (st' & -> & H) Hal. cbn [map existsb] in Hal. rewrite orb_false_r in Hal.
    eexists. split; [reflexivity|]. apply TInv1_step; assumption.
  - apply sbody_den_step.
  - apply sbody_den_all_dead.
  - intros _ p' (st' & -> & H) Hbot. rewrite sum_at_leaf. cbn [sbody_den fold_right]. f_equal. symmetry.
    apply (TInv1_bottom st' p' H). apply Hbot. left. reflexivity.
Qed.

(* certified validation of a single-term program (a product or a take with ANY selected operand) *)
Theorem nest_take1_full_okb_sound : forall L s tm views acc lv out,
  nest_take1_full_okb L (map rem tm) views s acc lv out = true ->
  forallb (fun t => goodb (rem t) (cur t)) tm = true ->
  views = expected_views L [map rem tm] /\
  (forall o, nest_result acc out o (run_lv lv L [tm]) = out_sum_at out o (runS L [(s, tm)])) /\
  (forall p, sum_at p (runS L [(s, tm)]) = sden (s, tm) p).
Proof.
  intros L s tm views acc lv out H Hg. unfold nest_take1_full_okb in H. rewrite map_length in H.
  apply andb_true_iff in H as [H H4]. apply andb_true_iff in H as [H H3]. apply andb_true_iff in H as [H1 H2].
  split; [apply (nest_okb_sound L [tm] views H1)|]. split.
  - intros o. rewrite (run_lv_eq_S lv [s] L [tm] eq_refl H3). apply nest_result_acc_S. exact H4.
  - apply (runS1_sound L (s, tm)).
    + apply (nest_okb_wf L [tm] views H1).
    + split; [exact Hg|]. cbn [fst snd]. destruct s as [i|]; [apply Nat.ltb_lt; exact H2|exact I].
Qed.
