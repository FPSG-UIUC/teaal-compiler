(* C05, third mechanism: the monotone temporary counter. *)
From Coq Require Import String List Arith Lia.
Require Import TV.Model.TmpCounter.
Import ListNotations.

Fixpoint nexts (ops : list tmp_op) : nat :=
  match ops with [] => 0 | TNext :: o => S (nexts o) | TCurr :: o => nexts o end.

Lemma tmp_final_nexts ops : forall n, tmp_final n ops = n + nexts ops.
Proof. induction ops as [|[|] ops IH]; intros n; cbn [tmp_final tmp_step fst nexts]; rewrite ?IH; lia. Qed.

Lemma nexts_app a b : nexts (a ++ b) = nexts a + nexts b.
Proof. induction a as [|[|] a IH]; cbn [app nexts]; rewrite ?IH; reflexivity. Qed.

Theorem issued_seq ops : forall n, issued (tmp_run n ops) = seq n (nexts ops).
Proof.
  induction ops as [|[|] ops IH]; intros n; cbn [tmp_run tmp_step fst snd issued nexts seq]; [reflexivity| |].
  - rewrite IH. reflexivity.
  - destruct n; cbn [issued]; apply IH.
Qed.

Theorem issued_NoDup n ops : NoDup (issued (tmp_run n ops)).
Proof. rewrite issued_seq. apply seq_NoDup. Qed.

(* fresh with respect to everything issued earlier in the same translation (earlier Einsums included) *)
Theorem issued_fresh n ops k : In k (issued (tmp_run n ops)) -> n <= k.
Proof. rewrite issued_seq. intros H. apply in_seq in H. lia. Qed.

Lemma tmp_run_app ops1 ops2 : forall n,
  tmp_run n (ops1 ++ ops2) = tmp_run n ops1 ++ tmp_run (tmp_final n ops1) ops2.
Proof. induction ops1 as [|o ops1 IH]; intros n; [reflexivity|]. cbn [app tmp_run tmp_final]. rewrite IH. reflexivity. Qed.

Lemma issued_app a b : issued (a ++ b) = issued a ++ issued b.
Proof.
  induction a as [|[[|] [k|]] a IH]; cbn [app issued]; try exact IH; [reflexivity|]. rewrite IH. reflexivity.
Qed.

Theorem cascade_tmps_disjoint n ops1 ops2 k :
  In k (issued (tmp_run n ops1)) -> In k (issued (tmp_run (tmp_final n ops1) ops2)) -> False.
Proof.
  rewrite !issued_seq, tmp_final_nexts. intros H1 H2. apply in_seq in H1. apply in_seq in H2. lia.
Qed.

Theorem curr_is_last_issued n ops :
  snd (tmp_step (tmp_final n (ops ++ [TNext])) TCurr) = Some (n + nexts ops).
Proof. rewrite tmp_final_nexts, nexts_app, Nat.add_assoc, Nat.add_1_r. reflexivity. Qed.

(* "up to the numbering of temporaries": the same sequence of requests started k temporaries later
   (an Einsum compiled after a prefix instead of alone) gets the same names shifted by k, provided
   the stand-alone run never asks for a previous temporary that does not exist *)
Definition shift (k : nat) (x : tmp_op * option nat) : tmp_op * option nat :=
  (fst x, option_map (fun i => k + i) (snd x)).

Lemma tmp_step_shift k n o :
  snd (tmp_step n o) <> None ->
  tmp_step (k + n) o = (k + fst (tmp_step n o), option_map (fun i => k + i) (snd (tmp_step n o))).
Proof.
  destruct o; [intros _; cbn; rewrite <- plus_n_Sm; reflexivity|].
  destruct n as [|m]; [intros H; destruct H; reflexivity|intros _; cbn; rewrite <- plus_n_Sm; reflexivity].
Qed.

Theorem tmp_run_shift k ops : forall n,
  tmp_ok (tmp_run n ops) = true -> tmp_run (k + n) ops = map (shift k) (tmp_run n ops).
Proof.
  induction ops as [|o ops IH]; intros n H; [reflexivity|]. cbn [tmp_run tmp_ok forallb snd] in H.
  apply Bool.andb_true_iff in H as [Ho H]. cbn [tmp_run map]. unfold shift at 1. cbn [fst snd].
  rewrite tmp_step_shift by (intros E; rewrite E in Ho; discriminate Ho). cbn [fst snd]. f_equal. apply IH, H.
Qed.

Lemma tmp_run_app_shift n ops1 ops2 :
  tmp_ok (tmp_run n ops2) = true ->
  tmp_run n (ops1 ++ ops2) = tmp_run n ops1 ++ map (shift (nexts ops1)) (tmp_run n ops2).
Proof. intros H. rewrite tmp_run_app, tmp_final_nexts, Nat.add_comm. f_equal. apply tmp_run_shift, H. Qed.

Corollary cascade_is_renumbering ops1 ops2 :
  tmp_ok (tmp_run 0 ops2) = true ->
  tmp_run 0 (ops1 ++ ops2) = tmp_run 0 ops1 ++ map (shift (nexts ops1)) (tmp_run 0 ops2).
Proof. apply tmp_run_app_shift. Qed.

Example tmp_example :
  show_tmp_run [TCurr; TNext; TCurr; TNext; TNext; TCurr] = "ERR,tmp0,tmp0,tmp1,tmp2,tmp2"%string.
Proof. vm_compute. reflexivity. Qed.
