(* Facts about lists, duplicate-freeness and strongly sorted lists that Coq 8.16's library lacks.
   A fact stands here when it speaks of lists alone (no numbers, no type of a model), whichever proof file needs it. *)
From Coq Require Import List Bool Sorted Permutation.
Import ListNotations.

Lemma false_iff (b : bool) (P : Prop) : (b = true <-> P) -> (b = false <-> ~ P).
Proof. intros H. rewrite <- H. symmetry. apply not_true_iff_false. Qed.

Lemma existsb_eqb_In {A} (p : A -> bool) x l :
  (forall y, p y = true <-> y = x) -> (existsb p l = true <-> In x l).
Proof.
  intros Hp. rewrite existsb_exists. split.
  - intros [y [Hy E]]. apply Hp in E. subst y. exact Hy.
  - intros Hx. exists x. split; [exact Hx|apply Hp; reflexivity].
Qed.

Lemma existsb_iff {A} (f : A -> bool) (P : A -> Prop) l :
  (forall x, f x = true <-> P x) -> (existsb f l = true <-> exists x, In x l /\ P x).
Proof.
  intros H. rewrite existsb_exists.
  split; intros [x [Hx Hf]]; exists x; (split; [exact Hx|apply H; exact Hf]).
Qed.

Lemma forallb_iff {A} (f : A -> bool) (P : A -> Prop) l :
  (forall x, f x = true <-> P x) -> (forallb f l = true <-> forall x, In x l -> P x).
Proof. intros H. rewrite forallb_forall. split; intros Hl x Hx; apply H, Hl, Hx. Qed.

Lemma existsb2_iff {A B} (f : A -> B -> bool) (P : A -> B -> Prop) (g : A -> list B) l :
  (forall x y, f x y = true <-> P x y) ->
  (existsb (fun x => existsb (f x) (g x)) l = true <-> exists x y, In x l /\ In y (g x) /\ P x y).
Proof.
  intros H. rewrite (existsb_iff _ (fun x => exists y, In y (g x) /\ P x y)).
  - split; [intros (x & Hx & y & Hy); exists x, y; split; assumption
           |intros (x & y & Hx & Hy); exists x; split; [exact Hx|exists y; exact Hy]].
  - intros x. apply existsb_iff, H.
Qed.

Lemma existsb_negb_forallb {A} (f : A -> bool) l : existsb (fun x => negb (f x)) l = negb (forallb f l).
Proof. induction l as [|x l IH]; simpl; [reflexivity|]. rewrite IH. destruct (f x); reflexivity. Qed.

Lemma forallb_false_ex {A} (f : A -> bool) l : forallb f l = false -> exists x, In x l /\ f x = false.
Proof.
  intros H. apply (f_equal negb) in H. rewrite <- existsb_negb_forallb in H.
  apply existsb_exists in H as [x [Hx E]]. exists x. split; [exact Hx|]. apply negb_true_iff, E.
Qed.

Lemma existsb_false_iff {A} (f : A -> bool) l : existsb f l = false <-> forall x, In x l -> f x = false.
Proof.
  rewrite (false_iff _ _ (existsb_exists f l)). split.
  - intros H x Hx. destruct (f x) eqn:E; [|reflexivity]. destruct H. exists x. split; assumption.
  - intros H [x [Hx E]]. rewrite (H x Hx) in E. discriminate.
Qed.

Lemma existsb_false_In {A} (f : A -> bool) l x : existsb f l = false -> In x l -> f x = false.
Proof. intros H. exact (proj1 (existsb_false_iff f l) H x). Qed.

Lemma forallb_map_Forall {A B} (p : B -> bool) (f : A -> B) l :
  Forall (fun x => p (f x) = true) l -> forallb p (map f l) = true.
Proof. induction 1 as [|x l Hx _ IH]; cbn [map forallb]; [reflexivity|]. rewrite Hx. exact IH. Qed.

Lemma map_fixed {A} (p : A -> bool) (f : A -> A) l :
  Forall (fun x => p x = true -> f x = x) l -> forallb p l = true -> map f l = l.
Proof.
  induction 1 as [|x l Hx _ IH]; cbn [map forallb]; intros H; [reflexivity|].
  apply andb_true_iff in H as [H1 H2]. rewrite (Hx H1), (IH H2). reflexivity.
Qed.

Lemma list_eqb_iff {A} (eqb : A -> A -> bool) (leqb : list A -> list A -> bool) :
  (forall x y, eqb x y = true <-> x = y) ->
  (forall a b, leqb a b = match a, b with [], [] => true | x :: a', y :: b' => eqb x y && leqb a' b' | _, _ => false end) ->
  forall a b, leqb a b = true <-> a = b.
Proof.
  intros He Hl. induction a as [|x a IH]; intros [|y b]; rewrite Hl; try (split; [discriminate|congruence]); [tauto|].
  rewrite andb_true_iff, He, IH. split; [intros [-> ->]; reflexivity|intros [= -> ->]; tauto].
Qed.

Lemma nil_iff_no_In {A} (l : list A) : l = [] <-> forall x, ~ In x l.
Proof.
  destruct l as [|a l]; split; [intros _ x []|reflexivity|discriminate|].
  intros H. destruct (H a (or_introl eq_refl)).
Qed.

Lemma app_nil_iff {A} (a b : list A) : a ++ b = [] <-> a = [] /\ b = [].
Proof. split; [apply app_eq_nil|intros [-> ->]; reflexivity]. Qed.

Lemma map_nil_iff {A B} (f : A -> B) l : map f l = [] <-> l = [].
Proof. split; [apply map_eq_nil|intros ->; reflexivity]. Qed.

Lemma flat_map_nil_iff {A B} (f : A -> list B) l : flat_map f l = [] <-> forall x, In x l -> f x = [].
Proof.
  induction l as [|a l IH]; cbn [flat_map In]; [split; [intros _ x []|reflexivity]|].
  rewrite app_nil_iff, IH. split; [intros [Ha H] x [<-|Hx]; auto|auto].
Qed.

Lemma if_nil_then {A} (b : bool) (x : A) : (if b then [] else [x]) = [] <-> b = true.
Proof. destruct b; split; [reflexivity|reflexivity|discriminate|discriminate]. Qed.

Lemma if_nil_else {A} (b : bool) (x : A) : (if b then [x] else []) = [] <-> b = false.
Proof. destruct b; split; [discriminate|discriminate|reflexivity|reflexivity]. Qed.

Lemma filter_all {A} (f : A -> bool) l : (forall x, In x l -> f x = true) -> filter f l = l.
Proof.
  induction l as [|x l IH]; intros H; [reflexivity|]. cbn [filter]. rewrite (H x (or_introl eq_refl)).
  f_equal. apply IH. intros y Hy. apply H. right. exact Hy.
Qed.

Lemma filter_none {A} (f : A -> bool) l : (forall x, In x l -> f x = false) -> filter f l = [].
Proof.
  induction l as [|x l IH]; intros H; [reflexivity|]. cbn [filter]. rewrite (H x (or_introl eq_refl)).
  apply IH. intros y Hy. apply H. right. exact Hy.
Qed.

Lemma filter_nil_iff {A} (f : A -> bool) l : filter f l = [] <-> forall x, In x l -> f x = false.
Proof.
  split; [|apply filter_none]. intros H x Hx. destruct (f x) eqn:E; [|reflexivity].
  destruct (proj1 (nil_iff_no_In _) H x). apply filter_In. split; assumption.
Qed.

Lemma filter_filter {A} (f g : A -> bool) l : filter g (filter f l) = filter (fun x => f x && g x) l.
Proof.
  induction l as [|x l IH]; [reflexivity|]. cbn [filter]. destruct (f x); cbn [filter andb]; rewrite IH; reflexivity.
Qed.

Lemma filter_map_comm {A B} (f : B -> bool) (g : A -> B) l : filter f (map g l) = map g (filter (fun x => f (g x)) l).
Proof.
  induction l as [|x l IH]; [reflexivity|]. cbn [map filter]. destruct (f (g x)); [cbn [map]; f_equal; exact IH|exact IH].
Qed.

Lemma in_filter_negb_app {A} (p : A -> bool) l x : In x (filter p l ++ filter (fun y => negb (p y)) l) <-> In x l.
Proof. rewrite in_app_iff, !filter_In. destruct (p x); simpl; tauto. Qed.

Lemma filter_negb_all {A} (p : A -> bool) l : forallb (fun x => negb (p x)) l = true ->
  filter p l = [] /\ filter (fun x => negb (p x)) l = l.
Proof.
  rewrite forallb_forall. intro H. split; [apply filter_none|apply filter_all; exact H].
  intros x Hx. apply negb_true_iff, H, Hx.
Qed.

Lemma filter_negb_perm {A} (f : A -> bool) l : Permutation (filter (fun x => negb (f x)) l ++ filter f l) l.
Proof.
  induction l as [|x l IH]; cbn [filter]; [constructor|]. destruct (f x); cbn [negb app].
  - apply Permutation_sym, Permutation_cons_app, Permutation_sym, IH.
  - constructor. exact IH.
Qed.

Lemma flat_map_filter_nil {A B} (g : A -> list B) p l :
  (forall x, In x l -> p x = false -> g x = []) -> flat_map g (filter p l) = flat_map g l.
Proof.
  induction l as [|x l IH]; intros H; [reflexivity|]. cbn [filter flat_map].
  rewrite <- IH by (intros y Hy; apply H; right; exact Hy).
  destruct (p x) eqn:E; [reflexivity|]. rewrite (H x (or_introl eq_refl) E). reflexivity.
Qed.

Lemma flat_map_ext_in {A B} (f g : A -> list B) l : (forall a, In a l -> f a = g a) -> flat_map f l = flat_map g l.
Proof. intros H. rewrite !flat_map_concat_map. f_equal. apply map_ext_in. exact H. Qed.

Lemma flat_map_singleton {A B} (f : A -> B) l : flat_map (fun a => [f a]) l = map f l.
Proof. induction l as [|a l IH]; cbn [flat_map map app]; congruence. Qed.

Lemma in_flat_map_In {A B} (g : A -> list B) y x l :
  (forall e, In y (g e) <-> e = x) -> (In y (flat_map g l) <-> In x l).
Proof.
  intros Hg. rewrite in_flat_map. split.
  - intros [e [He Hy]]. apply Hg in Hy. subst e. exact He.
  - intros Hx. exists x. split; [exact Hx|apply Hg; reflexivity].
Qed.

Lemma nth_map_fixed {A} (f : A -> A) d l i : f d = d -> nth i (map f l) d = f (nth i l d).
Proof. intros E. rewrite <- (map_nth f). rewrite E. reflexivity. Qed.

Lemma combine_map_r {A B C} (f : B -> C) (a : list A) b :
  combine a (map f b) = map (fun x => (fst x, f (snd x))) (combine a b).
Proof. revert b; induction a as [|x a IH]; intros [|y b]; cbn; try reflexivity. f_equal. apply IH. Qed.

Lemma hd_In {A} (d : A) l : l <> [] -> In (hd d l) l.
Proof. destruct l; [congruence|left; reflexivity]. Qed.

Lemma find_app {A} (f : A -> bool) l l' :
  find f (l ++ l') = match find f l with Some y => Some y | None => find f l' end.
Proof. induction l as [|a l IH]; cbn [app find]; [reflexivity|]. destruct (f a); [reflexivity|exact IH]. Qed.

Lemma ex_split_nil {A} (P : list A -> list A -> Prop) x : ~ exists a b, [] = a ++ x :: b /\ P a b.
Proof. intros [a [b [H _]]]. exact (app_cons_not_nil _ _ _ H). Qed.

Lemma ex_split_cons {A} (P : list A -> list A -> Prop) x e l :
  (exists a b, e :: l = a ++ x :: b /\ P a b) <->
  (e = x /\ P [] l) \/ (exists a b, l = a ++ x :: b /\ P (e :: a) b).
Proof.
  split.
  - intros [[|e' a] [b [[= -> ->] HP]]]; [left; split; [reflexivity|exact HP]|right; exists a, b; split; [reflexivity|exact HP]].
  - intros [[-> HP]|[a [b [-> HP]]]]; [exists [], l|exists (e :: a), b]; split; [reflexivity|exact HP|reflexivity|exact HP].
Qed.

Lemma app_eq_app_cons {A} (l1 l2 a : list A) e b :
  l1 ++ l2 = a ++ e :: b ->
  (exists b0, l1 = a ++ e :: b0 /\ b = b0 ++ l2) \/ (exists a0, a = l1 ++ a0 /\ l2 = a0 ++ e :: b).
Proof.
  revert a. induction l1 as [|x l1 IH]; intros a H; [right; exists a; split; [reflexivity|exact H]|].
  destruct a as [|y a]; cbn [app] in H; injection H as -> H.
  - left. exists l1. split; [reflexivity|symmetry; exact H].
  - destruct (IH a H) as [[b0 [-> ->]]|[a0 [-> ->]]]; [left; exists b0|right; exists a0]; split; reflexivity.
Qed.

Lemma flat_map_split {A B} (f : A -> list B) l a e b :
  flat_map f l = a ++ e :: b ->
  exists l1 x l2 a' b', l = l1 ++ x :: l2 /\ f x = a' ++ e :: b' /\ a = flat_map f l1 ++ a' /\ b = b' ++ flat_map f l2.
Proof.
  revert a. induction l as [|x l IH]; intros a H; cbn [flat_map] in H; [destruct (app_cons_not_nil _ _ _ H)|].
  destruct (app_eq_app_cons _ _ _ _ _ H) as [[b0 [H1 H2]]|[a0 [H1 H2]]].
  - exists [], x, l, a, b0. repeat split; assumption.
  - destruct (IH a0 H2) as [l1 [y [l2 [a' [b' [E1 [E2 [E3 E4]]]]]]]].
    exists (x :: l1), y, l2, a', b'. subst. cbn [app flat_map]. rewrite <- app_assoc. repeat split; assumption.
Qed.

Lemma fold_left_ext_in {A B} (f g : A -> B -> A) l :
  (forall a b, In b l -> f a b = g a b) -> forall a, fold_left f l a = fold_left g l a.
Proof.
  induction l as [|b l IH]; intros H a; [reflexivity|]. cbn [fold_left].
  rewrite H by (left; reflexivity). apply IH. intros a' b' Hb. apply H. right. exact Hb.
Qed.

Lemma fold_left_map {A B C} (f : A -> C -> A) (g : B -> C) l : forall a,
  fold_left f (map g l) a = fold_left (fun a x => f a (g x)) l a.
Proof. induction l as [|x l IH]; intros a; [reflexivity|apply IH]. Qed.

Lemma fold_left_flat_map {A B C} (f : A -> C -> A) (g : B -> list C) l : forall a,
  fold_left f (flat_map g l) a = fold_left (fun a x => fold_left f (g x) a) l a.
Proof. induction l as [|x l IH]; intros a; [reflexivity|]. cbn [flat_map fold_left]. rewrite fold_left_app. apply IH. Qed.

Lemma fold_left_invariant {A B} (P : A -> Prop) (f : A -> B -> A) l :
  (forall a b, In b l -> P a -> P (f a b)) -> forall a, P a -> P (fold_left f l a).
Proof.
  induction l as [|b l IH]; intros Hf a Ha; [exact Ha|]. cbn [fold_left].
  apply IH; [intros a' b' Hb'; apply Hf; right; exact Hb'|apply Hf; [left; reflexivity|exact Ha]].
Qed.

Lemma fold_left_hist_invariant {S E} (step : S -> E -> S) (I : S -> list E -> Prop) :
  (forall s h e, I s h -> I (step s e) (h ++ [e])) ->
  forall l s h, I s h -> I (fold_left step l s) (h ++ l).
Proof.
  intros Hstep. induction l as [|e l IH]; intros s h H; cbn [fold_left].
  - rewrite app_nil_r. exact H.
  - replace (h ++ e :: l) with ((h ++ [e]) ++ l) by (rewrite <- app_assoc; reflexivity). apply IH, Hstep, H.
Qed.

(* a fold whose state is a function K of the elements consumed so far: it is enough that one step
   appends one element, under an invariant of the whole list *)
Lemma fold_left_snoc {A B} (step : B -> A -> B) (K : list A -> B) (Inv : list A -> Prop) :
  (forall acc x l, Inv (acc ++ x :: l) -> step (K acc) x = K (acc ++ [x])) ->
  forall l acc, Inv (acc ++ l) -> fold_left step l (K acc) = K (acc ++ l).
Proof.
  intros Hstep. induction l as [|x l IH]; intros acc H; cbn [fold_left]; [rewrite app_nil_r; reflexivity|].
  rewrite (Hstep acc x l H), IH; rewrite <- app_assoc; [reflexivity|exact H].
Qed.

Lemma NoDup_app_iff {A} (l1 l2 : list A) :
  NoDup (l1 ++ l2) <-> NoDup l1 /\ NoDup l2 /\ (forall x, In x l1 -> In x l2 -> False).
Proof.
  induction l1 as [|a l1 IH]; cbn [app].
  - split; [intros H; repeat split; [constructor|exact H|intros x []]|intros [_ [H _]]; exact H].
  - rewrite !NoDup_cons_iff, IH, in_app_iff. split.
    + intros [Ha [H1 [H2 Hd]]]. repeat split; try tauto. intros x [<-|Hx] Hx2; [tauto|exact (Hd x Hx Hx2)].
    + intros [[Ha H1] [H2 Hd]]. repeat split; try tauto.
      * intros [Hi|Hi]; [tauto|exact (Hd a (or_introl eq_refl) Hi)].
      * intros x Hx. apply Hd. right. exact Hx.
Qed.

Lemma NoDup_app_intro {A} (l1 l2 : list A) :
  NoDup l1 -> NoDup l2 -> (forall x, In x l1 -> In x l2 -> False) -> NoDup (l1 ++ l2).
Proof. intros H1 H2 Hd. apply NoDup_app_iff. tauto. Qed.

Lemma NoDup_map_inj_in {A B} (f : A -> B) l :
  (forall x y, In x l -> In y l -> f x = f y -> x = y) -> NoDup l -> NoDup (map f l).
Proof.
  intros Hinj. induction 1 as [|x l Hx Hnd IH]; cbn [map]; constructor.
  - intros Hin. apply in_map_iff in Hin as [y [E Hy]]. apply Hx.
    rewrite (Hinj x y (or_introl eq_refl) (or_intror Hy) (eq_sym E)). exact Hy.
  - apply IH. intros a b Ha Hb. apply Hinj; right; assumption.
Qed.

Lemma NoDup_flat_map {A B} (f : A -> list B) l :
  NoDup l -> (forall a, In a l -> NoDup (f a)) ->
  (forall a a' b, In a l -> In a' l -> In b (f a) -> In b (f a') -> a = a') -> NoDup (flat_map f l).
Proof.
  induction 1 as [|a l Ha Hnd IH]; intros Hf Hd; cbn [flat_map]; [constructor|]. apply NoDup_app_intro.
  - apply Hf. left. reflexivity.
  - apply IH; [intros a' Ha'; apply Hf; right; exact Ha'|]. intros a1 a2 b H1 H2. apply Hd; right; assumption.
  - intros b Hb Hb'. apply in_flat_map in Hb' as [a' [Ha' Hb']]. apply Ha.
    rewrite (Hd a a' b (or_introl eq_refl) (or_intror Ha') Hb Hb'). exact Ha'.
Qed.

Lemma NoDup_map_filter {A B} (f : A -> B) (p : A -> bool) l : NoDup (map f l) -> NoDup (map f (filter p l)).
Proof.
  induction l as [|a t IH]; simpl; intro H; [constructor|]. apply NoDup_cons_iff in H as [Ha H].
  destruct (p a); [|apply IH, H]. simpl. constructor; [|apply IH, H].
  contradict Ha. exact (incl_map f (incl_filter p t) _ Ha).
Qed.

Lemma SS_app_iff {A} (R : A -> A -> Prop) l1 l2 :
  StronglySorted R (l1 ++ l2) <->
  StronglySorted R l1 /\ StronglySorted R l2 /\ (forall a b, In a l1 -> In b l2 -> R a b).
Proof.
  induction l1 as [|x l1 IH]; cbn [app].
  - split; [intros H; repeat split; [constructor|exact H|intros a b []]|intros [_ [H _]]; exact H].
  - split.
    + intros H. apply StronglySorted_inv in H as [Hs Hf]. apply IH in Hs as [H1 [H2 H3]].
      rewrite Forall_app in Hf. destruct Hf as [Hf1 Hf2]. split; [constructor; assumption|]. split; [assumption|].
      intros a b [<-|Ha] Hb; [rewrite Forall_forall in Hf2; apply Hf2; exact Hb|apply H3; assumption].
    + intros [H1 [H2 H3]]. apply StronglySorted_inv in H1 as [Hs Hf]. constructor.
      * apply IH. split; [assumption|]. split; [assumption|]. intros a b Ha Hb. apply H3; [right; exact Ha|exact Hb].
      * rewrite Forall_app. split; [assumption|]. rewrite Forall_forall. intros b Hb. apply H3; [left; reflexivity|exact Hb].
Qed.

Lemma SS_filter {A} (R : A -> A -> Prop) f l : StronglySorted R l -> StronglySorted R (filter f l).
Proof.
  induction 1 as [|x l Hs IH Hf]; cbn [filter]; [constructor|].
  destruct (f x); [|exact IH]. constructor; [exact IH|]. exact (incl_Forall (incl_filter f l) Hf).
Qed.

Lemma SS_map_iff {A B} (R : B -> B -> Prop) (f : A -> B) l :
  StronglySorted R (map f l) <-> StronglySorted (fun a b => R (f a) (f b)) l.
Proof.
  induction l as [|x l IH]; cbn [map]; [split; constructor|].
  split; intros H; apply StronglySorted_inv in H as [Hs Hf]; constructor; try (apply IH; exact Hs).
  - rewrite Forall_map in Hf. exact Hf.
  - rewrite Forall_map. exact Hf.
Qed.

Lemma SS_impl {A} (R R' : A -> A -> Prop) l :
  (forall a b, In a l -> In b l -> R a b -> R' a b) -> StronglySorted R l -> StronglySorted R' l.
Proof.
  intros HR H. induction H as [|x l Hs IH Hf]; constructor.
  - apply IH. intros a b Ha Hb. apply HR; right; assumption.
  - rewrite Forall_forall in *. intros y Hy. apply HR; [left; reflexivity|right; exact Hy|apply Hf, Hy].
Qed.

Lemma SS_In_ext {A} (R : A -> A -> Prop) l1 l2 :
  (forall a b, R a b -> R b a -> False) ->
  StronglySorted R l1 -> StronglySorted R l2 -> (forall x, In x l1 <-> In x l2) -> l1 = l2.
Proof.
  intros Hasym H1. revert l2. induction H1 as [|x l1 Hs1 IH Hf1]; intros l2 H2 Hin.
  - destruct l2 as [|y l2]; [reflexivity|]. destruct (proj2 (Hin y) (or_introl eq_refl)).
  - destruct H2 as [|y l2 Hs2 Hf2]; [destruct (proj1 (Hin x) (or_introl eq_refl))|].
    rewrite Forall_forall in Hf1, Hf2.
    assert (x = y) as <-.
    { destruct (proj1 (Hin x) (or_introl eq_refl)) as [E|Hx]; [symmetry; exact E|].
      destruct (proj2 (Hin y) (or_introl eq_refl)) as [E|Hy]; [exact E|].
      destruct (Hasym x y (Hf1 y Hy) (Hf2 x Hx)). }
    f_equal. apply IH; [exact Hs2|]. intros z. split; intros Hz.
    + destruct (proj1 (Hin z) (or_intror Hz)) as [<-|Hz2]; [|exact Hz2]. destruct (Hasym x x (Hf1 x Hz) (Hf1 x Hz)).
    + destruct (proj2 (Hin z) (or_intror Hz)) as [<-|Hz1]; [|exact Hz1]. destruct (Hasym x x (Hf2 x Hz) (Hf2 x Hz)).
Qed.

Lemma SS_total {A} (R : A -> A -> Prop) l :
  StronglySorted R l -> forall a b, In a l -> In b l -> a = b \/ R a b \/ R b a.
Proof.
  induction 1 as [|x l Hs IH Hf]; intros a b Ha Hb; [destruct Ha|]. rewrite Forall_forall in Hf.
  destruct Ha as [<-|Ha], Hb as [<-|Hb]; auto.
Qed.

Lemma SS_NoDup {A} (R : A -> A -> Prop) l : (forall a, ~ R a a) -> StronglySorted R l -> NoDup l.
Proof.
  intros Hirr. induction 1 as [|x l Hs IH Hf]; constructor; [|exact IH].
  intros Hx. rewrite Forall_forall in Hf. exact (Hirr x (Hf x Hx)).
Qed.

Lemma SS_concat_iff {A} (R : A -> A -> Prop) ls :
  StronglySorted R (concat ls) <->
  Forall (StronglySorted R) ls /\ StronglySorted (fun l1 l2 => forall a b, In a l1 -> In b l2 -> R a b) ls.
Proof.
  induction ls as [|l ls IH]; cbn [concat]; [split; [split|]; constructor|].
  rewrite SS_app_iff, IH. split.
  - intros [H1 [[H2 H3] H4]]. split; constructor; try assumption. rewrite Forall_forall. intros l' Hl' a b Ha Hb.
    apply H4; [exact Ha|]. apply in_concat. exists l'. split; assumption.
  - intros [H1 H2]. apply Forall_cons_iff in H1 as [H1 H1']. apply StronglySorted_inv in H2 as [H2 H3].
    split; [exact H1|]. split; [split; assumption|]. intros a b Ha Hb. apply in_concat in Hb as [l' [Hl' Hb]].
    rewrite Forall_forall in H3. exact (H3 l' Hl' a b Ha Hb).
Qed.

Lemma SS_heads {A} (R : A -> A -> Prop) d chs : Forall (fun ch => ch <> []) chs ->
  StronglySorted R (concat chs) -> StronglySorted R (map (hd d) chs).
Proof.
  intros Hne H. apply SS_concat_iff in H as [_ H]. apply SS_map_iff. revert H. apply SS_impl.
  rewrite Forall_forall in Hne. intros c1 c2 H1 H2 H12. apply H12; apply hd_In, Hne; assumption.
Qed.

Lemma filter_split {A} (f : A -> bool) l :
  StronglySorted (fun a b => f b = true -> f a = true) l -> l = filter f l ++ filter (fun x => negb (f x)) l.
Proof.
  induction 1 as [|x l Hs IH Hf]; [reflexivity|]. cbn [filter]. destruct (f x) eqn:E; cbn [negb app]; [f_equal; exact IH|].
  rewrite Forall_forall in Hf.
  assert (H : forall y, In y l -> f y = false) by (intros y Hy; specialize (Hf y Hy); destruct (f y); [discriminate (Hf eq_refl)|reflexivity]).
  rewrite (filter_none f), filter_all; [reflexivity| |exact H]. intros y Hy. rewrite (H y Hy). reflexivity.
Qed.
