(* C16, third clause, at the level of whole loop nests: when every loop rank is stamped and the
   stamp of a rank is computed from the values of the loops that ENCLOSE it (partition levels
   looped outermost-to-innermost: a relative coordinate subtracts the coordinate of a level bound
   earlier; a position is the index inside the fiber the enclosing loops selected), two
   activities of one nest carry the same (space, time) stamp only if they are the same iteration.

   An iteration of a nest of n loops is the vector p of the n loop values (p i = value bound by the
   i-th loop, outermost first).  `stamp i p` is what the display computes for the i-th loop rank;
   nothing is assumed of it but `local_at`. *)
From Coq Require Import List ZArith Lia.
Require Import TV.Proofs.ListFacts.
Import ListNotations.
Local Open Scope Z_scope.

Section StampInj.
  Variable S : Type.                                (* what one rank contributes to a stamp *)
  Variable stamp : nat -> (nat -> Z) -> S.

  Definition local_at (i : nat) : Prop := forall p q : nat -> Z,
    (forall j, (j < i)%nat -> p j = q j) -> stamp i p = stamp i q -> p i = q i.

  Definition local_on (D : (nat -> Z) -> Prop) (i : nat) : Prop := forall p q : nat -> Z,
    D p -> D q -> (forall j, (j < i)%nat -> p j = q j) -> stamp i p = stamp i q -> p i = q i.

  Lemma local_at_on D i : local_at i -> local_on D i.
  Proof. intros H p q _ _. apply H. Qed.

  Theorem stamps_determine_iteration_on D n :
    (forall i, (i < n)%nat -> local_on D i) ->
    forall p q, D p -> D q -> (forall i, (i < n)%nat -> stamp i p = stamp i q) ->
    forall i, (i < n)%nat -> p i = q i.
  Proof.
    intros Hloc p q Dp Dq Heq i. induction i as [i IH] using lt_wf_ind. intros Hi.
    apply (Hloc i Hi); [exact Dp|exact Dq| |apply Heq; exact Hi].
    intros j Hj. apply IH; [exact Hj|lia].
  Qed.

  (* the split into space and time: ANY two lists of loop ranks, in any order, with repetitions
     or not, as long as every loop rank occurs in one of them *)
  Definition st_stamp (space time : list nat) (p : nat -> Z) : list S * list S :=
    (map (fun i => stamp i p) space, map (fun i => stamp i p) time).

  Theorem st_stamp_injective_on D n space time :
    (forall i, (i < n)%nat -> In i (space ++ time)) ->
    (forall i, (i < n)%nat -> local_on D i) ->
    forall p q, D p -> D q -> st_stamp space time p = st_stamp space time q ->
    forall i, (i < n)%nat -> p i = q i.
  Proof.
    intros Hcov Hloc p q Dp Dq H. unfold st_stamp in H. injection H as Hs Ht.
    apply (stamps_determine_iteration_on D n Hloc p q Dp Dq).
    intros i Hi. destruct (in_app_or _ _ _ (Hcov i Hi)) as [Hin|Hin].
    - exact (ext_in_map Hs i Hin).
    - exact (ext_in_map Ht i Hin).
  Qed.
End StampInj.

Definition at_ (p : list Z) (i : nat) : Z := nth i p 0.

Lemma at_ext n p q :
  length p = n -> length q = n -> (forall i, (i < n)%nat -> at_ p i = at_ q i) -> p = q.
Proof. intros Lp Lq H. apply (nth_ext p q 0 0); [congruence|]. intros i Hi. apply H. rewrite <- Lp. exact Hi. Qed.

Theorem st_stamp_NoDup_on (S : Type) (stamp : nat -> (nat -> Z) -> S) D n space time :
  (forall i, (i < n)%nat -> In i (space ++ time)) ->
  (forall i, (i < n)%nat -> local_on S stamp D i) ->
  forall its : list (list Z), (forall p, In p its -> length p = n /\ D (at_ p)) -> NoDup its ->
  NoDup (map (fun p => st_stamp S stamp space time (at_ p)) its).
Proof.
  intros Hcov Hloc its Hwf. apply NoDup_map_inj_in. intros p q Hp Hq E.
  destruct (Hwf p Hp) as [Lp Dp], (Hwf q Hq) as [Lq Dq]. apply (at_ext n _ _ Lp Lq).
  exact (st_stamp_injective_on S stamp D n space time Hcov Hloc (at_ p) (at_ q) Dp Dq E).
Qed.

Theorem st_stamp_NoDup (S : Type) (stamp : nat -> (nat -> Z) -> S) n space time :
  (forall i, (i < n)%nat -> In i (space ++ time)) ->
  (forall i, (i < n)%nat -> local_at S stamp i) ->
  forall its : list (list Z), (forall p, In p its -> length p = n) -> NoDup its ->
  NoDup (map (fun p => st_stamp S stamp space time (at_ p)) its).
Proof.
  intros Hcov Hloc its Hlen. apply (st_stamp_NoDup_on S stamp (fun _ => True) n space time Hcov).
  - intros i Hi. apply local_at_on, Hloc, Hi.
  - intros p Hp. split; [apply Hlen, Hp|exact I].
Qed.

(* coordinate style: the coordinate itself, or - for a partition level below the top - the
   coordinate relative to the enclosing level's coordinate (`k0 - k1`), the enclosing level
   being bound by an EARLIER loop (levels looped outermost-to-innermost) *)
Definition coord_stamp (parent : nat -> option nat) (i : nat) (p : nat -> Z) : Z :=
  match parent i with Some j => p i - p j | None => p i end.

Theorem coord_stamp_local parent i :
  (forall j, parent i = Some j -> (j < i)%nat) -> local_at Z (coord_stamp parent) i.
Proof.
  intros Hpar p q Hpre H. unfold coord_stamp in H. destruct (parent i) as [j|] eqn:E; [|exact H].
  rewrite (Hpre j (Hpar j eq_refl)) in H. lia.
Qed.

(* position style: the index of the loop value inside the fiber that the enclosing loops
   selected; the fiber (a duplicate-free list of coordinates) may depend on every enclosing
   loop value but on nothing else *)
Fixpoint index_of (c : Z) (l : list Z) : nat :=
  match l with [] => 0 | x :: l' => if Z.eqb x c then 0 else Datatypes.S (index_of c l') end.

Lemma index_of_inj l : forall c d, In c l -> In d l -> index_of c l = index_of d l -> c = d.
Proof.
  induction l as [|x l IH]; intros c d Hc Hd H; [destruct Hc|].
  cbn [index_of] in H. destruct (Z.eqb_spec x c) as [E1|N1]; destruct (Z.eqb_spec x d) as [E2|N2].
  - congruence.
  - discriminate.
  - discriminate.
  - injection H as H. destruct Hc as [Hc|Hc]; [contradiction|]. destruct Hd as [Hd|Hd]; [contradiction|].
    apply IH; assumption.
Qed.

Definition pos_stamp (fiber : nat -> (nat -> Z) -> list Z) (i : nat) (p : nat -> Z) : Z :=
  Z.of_nat (index_of (p i) (fiber i p)).

(* the iterations the nest actually performs: loop i draws its value from the selected fiber *)
Definition runs (fiber : nat -> (nat -> Z) -> list Z) (n : nat) (p : nat -> Z) : Prop :=
  forall i, (i < n)%nat -> In (p i) (fiber i p).

(* local only among the iterations the nest performs: all values outside the fiber share one index *)
Theorem pos_stamp_local_on fiber n i :
  (i < n)%nat -> (forall p q, (forall j, (j < i)%nat -> p j = q j) -> fiber i p = fiber i q) ->
  local_on Z (pos_stamp fiber) (runs fiber n) i.
Proof.
  intros Hi Hfib p q Rp Rq Hpre H. unfold pos_stamp in H. apply Nat2Z.inj in H.
  specialize (Rp i Hi). rewrite (Hfib p q Hpre) in H, Rp. exact (index_of_inj _ _ _ Rp (Rq i Hi) H).
Qed.

Section Mixed.
  Variable parent : nat -> option nat.
  Variable fiber : nat -> (nat -> Z) -> list Z.
  Variable is_pos : nat -> bool.                   (* style chosen per rank *)
  Variable n : nat.
  Hypothesis parent_earlier : forall i j, parent i = Some j -> (j < i)%nat.
  Hypothesis fiber_prefix : forall i p q, (forall j, (j < i)%nat -> p j = q j) -> fiber i p = fiber i q.

  Definition mixed_stamp (i : nat) (p : nat -> Z) : Z :=
    if is_pos i then pos_stamp fiber i p else coord_stamp parent i p.

  Lemma mixed_stamp_local_on i : (i < n)%nat -> local_on Z mixed_stamp (runs fiber n) i.
  Proof.
    intros Hi. unfold local_on, mixed_stamp. destruct (is_pos i).
    - exact (pos_stamp_local_on fiber n i Hi (fiber_prefix i)).
    - exact (local_at_on Z _ _ i (coord_stamp_local parent i (parent_earlier i))).
  Qed.

  Theorem mixed_st_stamp_NoDup space time :
    (forall i, (i < n)%nat -> In i (space ++ time)) ->
    forall its : list (list Z), (forall p, In p its -> length p = n /\ runs fiber n (at_ p)) -> NoDup its ->
    NoDup (map (fun p => st_stamp Z mixed_stamp space time (at_ p)) its).
  Proof. intros Hcov. exact (st_stamp_NoDup_on Z mixed_stamp (runs fiber n) n space time Hcov mixed_stamp_local_on). Qed.
End Mixed.

(* the covering hypothesis is necessary: with a loop rank left out of the spacetime, two iterations share a stamp *)
Example unstamped_rank_collides :
  let stamp := coord_stamp (fun _ => None) in
  st_stamp Z stamp [0%nat] [] (at_ [1; 2]) = st_stamp Z stamp [0%nat] [] (at_ [1; 3]) /\ [1; 2] <> [1; 3].
Proof. split; [reflexivity|discriminate]. Qed.

(* a level stamped relative to a level that is NOT stamped itself (the case the clause excludes by
   "every loop rank is stamped"): K1 = 0, K0 = 1 and K1 = 4, K0 = 5 both read relative coordinate 1 *)
Example relative_without_enclosing_collides :
  let stamp := coord_stamp (fun i => match i with 1%nat => Some 0%nat | _ => None end) in
  st_stamp Z stamp [] [1%nat] (at_ [0; 1]) = st_stamp Z stamp [] [1%nat] (at_ [4; 5]) /\ [0; 1] <> [4; 5].
Proof. split; [reflexivity|discriminate]. Qed.

(* the premises are satisfiable: a 2-level nest over K1 (step 4), K0 relative, then N by its coordinate *)
Example stamps_distinct_example :
  let parent := fun i => match i with 1%nat => Some 0%nat | _ => None end in
  let stamp := coord_stamp parent in
  NoDup (map (fun p => st_stamp Z stamp [2%nat] [0%nat; 1%nat] (at_ p))
             [[0; 1; 7]; [0; 3; 7]; [4; 5; 7]; [4; 5; 9]]).
Proof.
  apply (st_stamp_NoDup Z _ 3).
  - intros i Hi. cbn. lia.
  - intros i Hi. apply coord_stamp_local. intros j. destruct i as [|[|i]]; cbn; try discriminate.
    intros H; injection H as <-. lia.
  - intros p Hp. cbn in Hp. repeat destruct Hp as [<-|Hp]; try reflexivity. destruct Hp.
  - repeat constructor; cbn; intuition discriminate.
Qed.
