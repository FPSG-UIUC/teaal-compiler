(* Laws of occupancy partitioning (C03): splitEqual chunks and leader/follower boundaries. *)
From Coq Require Import ZArith Lia List Sorted.
Require Import TV.Model.Rt.
Import ListNotations.

(* with enough fuel, chunks follows the recursion l |-> firstn n l :: chunks (skipn n l) down to [] *)
Lemma chunks_ind {A} (n : nat) (P : list A -> list (list A) -> Prop) : (0 < n)%nat ->
  P [] [] -> (forall l chs, l <> [] -> P (skipn n l) chs -> P l (firstn n l :: chs)) ->
  forall fuel l, (length l < fuel)%nat -> P l (chunks fuel n l).
Proof.
  intros Hn H0 HS. induction fuel as [|f IH]; intros l Hl; [lia|].
  destruct l as [|x l]; [exact H0|]. cbn [chunks]. apply HS; [discriminate|].
  apply IH. rewrite skipn_length. cbn [length] in *. lia.
Qed.

Lemma chunks_concat {A} (n : nat) : (0 < n)%nat -> forall fuel (l : list A), (length l < fuel)%nat ->
  concat (chunks fuel n l) = l.
Proof.
  intros Hn. apply (chunks_ind n (fun l chs => concat chs = l) Hn); [reflexivity|].
  intros l chs _ E. cbn [concat]. rewrite E. apply firstn_skipn.
Qed.

Lemma chunks_sizes {A} (n : nat) : (0 < n)%nat -> forall fuel (l : list A), (length l < fuel)%nat ->
  Forall (fun ch => ch <> [] /\ (length ch <= n)%nat) (chunks fuel n l).
Proof.
  intros Hn. apply (chunks_ind n (fun _ chs => Forall (fun ch => ch <> [] /\ (length ch <= n)%nat) chs) Hn); [constructor|].
  intros l chs Hl IH. constructor; [|exact IH]. split; [|rewrite firstn_length; lia].
  destruct n; [lia|]. destruct l; [congruence|discriminate].
Qed.

(* a chunk is followed by another one only if skipn n l is not empty, that is if l has more than n elements *)
Lemma chunks_full {A} (n : nat) : (0 < n)%nat -> forall fuel (l : list A), (length l < fuel)%nat ->
  forall pre ch post, chunks fuel n l = pre ++ ch :: post -> post <> [] -> length ch = n.
Proof.
  intros Hn fuel l Hl.
  refine (proj2 (chunks_ind n (fun l chs => (l = [] -> chs = []) /\ forall pre ch post,
                   chs = pre ++ ch :: post -> post <> [] -> length ch = n) Hn _ _ fuel l Hl)).
  - split; [reflexivity|]. intros [|? ?]; discriminate.
  - intros l' chs Hl' [Hnil IH]. split; [congruence|]. intros [|c0 pre] ch post E Hpost; cbn [app] in E; injection E as E1 E2.
    + subst ch chs. rewrite firstn_length. destruct (Nat.le_gt_cases n (length l')) as [Hle|Hgt]; [lia|].
      destruct Hpost. apply Hnil. apply skipn_all2. lia.
    + exact (IH pre ch post E2 Hpost).
Qed.

Open Scope Z_scope.

(* the partition of coordinate c for increasing boundaries bs, named by its boundary: the last boundary <= c.  It is the
   partition Rt.split_bounds puts c in (RtLaws.split_nonuniform_partition). *)
Fixpoint part_of (bs : list Z) (c : Z) : option Z :=
  match bs with
  | [] => None
  | b :: bs' => if c <? b then None
                else match part_of bs' c with Some b' => Some b' | None => Some b end
  end.

Definition in_part (bs : list Z) (b c : Z) : Prop :=
  exists pre post, bs = pre ++ b :: post /\ b <= c /\ match post with [] => True | b' :: _ => c < b' end.

Lemma part_of_none_iff bs c : part_of bs c = None <-> match bs with [] => True | b :: _ => c < b end.
Proof.
  destruct bs as [|b bs]; cbn [part_of]; [tauto|].
  destruct (Z.ltb_spec c b); [tauto|]. destruct (part_of bs c); split; (discriminate || lia).
Qed.

Lemma part_of_lt_head b bs c : StronglySorted Z.lt (b :: bs) -> c < b -> part_of (b :: bs) c = None.
Proof. intros _ H. apply part_of_none_iff. exact H. Qed.

Lemma in_part_cons b0 bs b c :
  in_part (b0 :: bs) b c <->
  (b = b0 /\ b0 <= c /\ match bs with [] => True | b' :: _ => c < b' end) \/ in_part bs b c.
Proof.
  unfold in_part. split.
  - intros [[|p pre] [post [E H]]]; cbn [app] in E; injection E as -> ->; [left; tauto|right; exists pre, post; tauto].
  - intros [[-> H]|[pre [post [-> H]]]]; [exists [], bs|exists (b0 :: pre), post]; tauto.
Qed.

Lemma in_part_In bs b c : in_part bs b c -> In b bs /\ b <= c.
Proof. intros [pre [post [-> [H _]]]]. split; [apply in_elt|exact H]. Qed.

(* the follower element c goes to the partition whose boundary b is the leader chunk holding c:
   part_of computes the one boundary with b <= c < next boundary *)
Theorem part_of_in_part bs c : StronglySorted Z.lt bs -> forall b, part_of bs c = Some b <-> in_part bs b c.
Proof.
  induction 1 as [|b0 bs Hs IH Hf]; intros b.
  - split; [discriminate|]. intros H. destruct (in_part_In _ _ _ H) as [[] _].
  - rewrite in_part_cons, <- IH. cbn [part_of]. rewrite Forall_forall in Hf.
    destruct (Z.ltb_spec c b0) as [Hlt|Hge].
    + split; [discriminate|]. intros [H|H]; [lia|]. apply IH, in_part_In in H as [Hin Hle]. specialize (Hf b Hin). lia.
    + destruct (part_of bs c) as [b'|] eqn:E.
      * split; [tauto|]. intros [[_ [_ Hhd]]|H]; [apply part_of_none_iff in Hhd; congruence|exact H].
      * apply part_of_none_iff in E. split; [intros [= <-]; left; tauto|intros [[-> _]|H]; [reflexivity|discriminate]].
Qed.

(* the leader's own chunk coordinates are boundaries of exactly this kind: if the leader chunk with first
   coordinate b holds c (b <= c and c before the next chunk) then the follower partition of c is b: no pair
   that must meet is separated, and no other follower partition holds c: none is met twice *)
Corollary leader_follower_meet bs b c : StronglySorted Z.lt bs -> in_part bs b c ->
  part_of bs c = Some b /\ forall b', in_part bs b' c -> b' = b.
Proof.
  intros Hs H. apply (part_of_in_part bs c Hs) in H. split; [exact H|].
  intros b' H'. apply (part_of_in_part bs c Hs) in H'. congruence.
Qed.
