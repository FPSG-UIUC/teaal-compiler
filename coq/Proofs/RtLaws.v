(* Algebraic laws of the modelled fibertree runtime (Model/Rt.v), for tries of ANY size:
   partitioning (splitUniform / splitEqual / splitNonUniform) is undone by mergeRanks,
   flattenRanks is undone by unflattenRanks, swizzleRanks permutes the coordinates of every path
   (so the inverse permutation undoes it and the identity order is the identity).
   All statements are about the very definitions the interpreter runs (C02, C03).
   Fibers are association lists; the laws need them integer-keyed and strictly increasing (int_sorted),
   and every proof about such a fiber goes through the cons equations alookup_int_cons / ainsert_int_cons. *)
From Coq Require Import ZArith List Bool Lia Sorted Permutation.
Require Import TV.Model.Rt TV.Proofs.ListFacts TV.Proofs.OccLaws TV.Proofs.SplitArith.
Import ListNotations.
Open Scope Z_scope.

Lemma veqb_int a b : veqb (VInt a) (VInt b) = (a =? b).
Proof.
  unfold veqb, vcmp, as_num, ncmp. destruct (Z.compare_spec a b); destruct (Z.eqb_spec a b); try reflexivity; lia.
Qed.

Lemma vltb_int a b : vltb (VInt a) (VInt b) = (a <? b).
Proof. reflexivity. Qed.

Lemma vleb_int a b : vleb (VInt a) (VInt b) = (a <=? b).
Proof. unfold vleb, vcmp, as_num, ncmp, Z.leb. destruct (a ?= b); reflexivity. Qed.

Lemma coordZ_int z : coordZ (VInt z) = Some z.
Proof. reflexivity. Qed.

Definition int_key {A} (ct : value * A) : Prop := exists z, fst ct = VInt z.
Definition kz {A} (ct : value * A) : Z := match fst ct with VInt z => z | _ => 0 end.
Definition int_sorted {A} (l : list (value * A)) : Prop :=
  Forall int_key l /\ StronglySorted (fun a b => kz a < kz b) l.
Definition nonneg_keys {A} (l : list (value * A)) : Prop := Forall (fun ct => 0 <= kz ct) l.

Lemma kz_VInt {A} z (x : A) : kz (VInt z, x) = z.
Proof. reflexivity. Qed.

Lemma nonneg_keys_In {A} (l : list (value * A)) ct : nonneg_keys l -> In ct l -> 0 <= kz ct.
Proof. intros H. exact (proj1 (Forall_forall _ l) H ct). Qed.

Lemma int_key_VInt {A} z (x : A) : int_key (VInt z, x).
Proof. exists z. reflexivity. Qed.

Lemma int_key_fst {A} (ct : value * A) : int_key ct -> fst ct = VInt (kz ct).
Proof. intros [z E]. unfold kz. rewrite E. reflexivity. Qed.

Lemma int_key_inv {A} (ct : value * A) : int_key ct -> exists z x, ct = (VInt z, x).
Proof. destruct ct as [c x]. intros [z E]. cbn in E. subst c. exists z, x. reflexivity. Qed.

Lemma int_sorted_app {A} (l1 l2 : list (value * A)) :
  int_sorted (l1 ++ l2) <-> int_sorted l1 /\ int_sorted l2 /\ (forall a b, In a l1 -> In b l2 -> kz a < kz b).
Proof. unfold int_sorted. rewrite Forall_app, SS_app_iff. tauto. Qed.

Lemma int_sorted_filter {A} f (l : list (value * A)) : int_sorted l -> int_sorted (filter f l).
Proof. intros [H1 H2]. split; [exact (incl_Forall (incl_filter f l) H1)|apply SS_filter; exact H2]. Qed.

Lemma int_sorted_nil {A} : int_sorted (@nil (value * A)).
Proof. split; constructor. Qed.

Lemma int_sorted_cons_inv {A} (ct : value * A) l : int_sorted (ct :: l) ->
  int_key ct /\ int_sorted l /\ forall b, In b l -> kz ct < kz b.
Proof.
  intros [H1 H2]. apply Forall_cons_iff in H1 as [H1 H1']. apply StronglySorted_inv in H2 as [H2 Hf].
  rewrite Forall_forall in Hf. split; [assumption|]. split; [split; assumption|exact Hf].
Qed.

Lemma int_sorted_cons {A} z (x : A) l : int_sorted l -> (forall b, In b l -> z < kz b) -> int_sorted ((VInt z, x) :: l).
Proof.
  intros [H1 H2] Hlt. split; constructor; try assumption; [apply int_key_VInt|]. rewrite Forall_forall. exact Hlt.
Qed.

Lemma int_sorted_app_cons {A} acc (ct : value * A) l : int_sorted (acc ++ ct :: l) ->
  exists z x, ct = (VInt z, x) /\ Forall int_key acc /\ forall a, In a acc -> kz a < z.
Proof.
  intros H. apply int_sorted_app in H as [[Hk _] [Hl Hlt]]. apply int_sorted_cons_inv in Hl as [Hc _].
  destruct (int_key_inv ct Hc) as [z [x ->]]. exists z, x. split; [reflexivity|]. split; [exact Hk|].
  intros a Ha. apply (Hlt a (VInt z, x) Ha). left. reflexivity.
Qed.

Lemma int_keys_ind {A} (P : list (value * A) -> Prop) :
  P [] -> (forall z x l, Forall int_key l -> P l -> P ((VInt z, x) :: l)) -> forall l, Forall int_key l -> P l.
Proof.
  intros H0 HS. induction 1 as [|[c x] l [z Hz] Hk IH]; [exact H0|]. cbn [fst] in Hz. subst c. apply HS; assumption.
Qed.

Lemma int_sorted_ind {A} (P : list (value * A) -> Prop) :
  P [] -> (forall z x l, int_sorted l -> (forall b, In b l -> z < kz b) -> P l -> P ((VInt z, x) :: l)) ->
  forall l, int_sorted l -> P l.
Proof.
  intros H0 HS. induction l as [|[c x] l IH]; intros H; [exact H0|].
  apply int_sorted_cons_inv in H as [[z Hz] [Hl Hlt]]. cbn [fst] in Hz. subst c. apply HS; [exact Hl|exact Hlt|exact (IH Hl)].
Qed.

Lemma alookup_int_cons {A} c z (x : A) l :
  alookup (VInt c) ((VInt z, x) :: l) = if c =? z then Some x else alookup (VInt c) l.
Proof. cbn [alookup]. rewrite veqb_int. reflexivity. Qed.

Lemma ainsert_int_cons {A} c (x : A) z y l :
  ainsert (VInt c) x ((VInt z, y) :: l) =
  if c <? z then (VInt c, x) :: (VInt z, y) :: l else if c =? z then (VInt c, x) :: l else (VInt z, y) :: ainsert (VInt c) x l.
Proof. cbn [ainsert]. rewrite vltb_int, veqb_int. reflexivity. Qed.

Lemma alookup_app {A} c (l1 l2 : list (value * A)) :
  alookup c (l1 ++ l2) = match alookup c l1 with Some x => Some x | None => alookup c l2 end.
Proof. induction l1 as [|[c' x] l1 IH]; cbn [app alookup]; [reflexivity|]. destruct (veqb c c'); [reflexivity|exact IH]. Qed.

Lemma alookup_notin {A} c (l : list (value * A)) :
  Forall int_key l -> (forall a, In a l -> kz a <> c) -> alookup (VInt c) l = None.
Proof.
  revert l. refine (int_keys_ind _ _ _); [reflexivity|]. intros z x l Hk IH H.
  rewrite alookup_int_cons. destruct (Z.eqb_spec c z) as [->|_]; [destruct (H _ (or_introl eq_refl)); reflexivity|].
  apply IH. intros a Ha. apply H. right. exact Ha.
Qed.

Lemma ainsert_app_above {A} c x (l1 l2 : list (value * A)) :
  Forall int_key l1 -> (forall a, In a l1 -> kz a < c) -> ainsert (VInt c) x (l1 ++ l2) = l1 ++ ainsert (VInt c) x l2.
Proof.
  revert l1. refine (int_keys_ind _ _ _); [reflexivity|]. intros z y l1 Hk IH H.
  cbn [app]. rewrite ainsert_int_cons. pose proof (H _ (or_introl eq_refl)) as Hz. rewrite kz_VInt in Hz.
  destruct (Z.ltb_spec c z); [lia|]. destruct (Z.eqb_spec c z); [lia|]. f_equal. apply IH. intros a Ha. apply H. right. exact Ha.
Qed.

Lemma ainsert_above {A} c x (l : list (value * A)) :
  Forall int_key l -> (forall a, In a l -> kz a < c) -> ainsert (VInt c) x l = l ++ [(VInt c, x)].
Proof. intros Hk Hlt. rewrite <- (app_nil_r l) at 1. exact (ainsert_app_above c x l [] Hk Hlt). Qed.

Lemma alookup_last {A} c x (l : list (value * A)) :
  Forall int_key l -> (forall a, In a l -> kz a < c) -> alookup (VInt c) (l ++ [(VInt c, x)]) = Some x.
Proof.
  intros Hk Hlt. rewrite alookup_app, alookup_notin, alookup_int_cons, Z.eqb_refl; [reflexivity|exact Hk|].
  intros a Ha. specialize (Hlt a Ha). lia.
Qed.

Lemma ainsert_last {A} c x y (l : list (value * A)) :
  Forall int_key l -> (forall a, In a l -> kz a < c) -> ainsert (VInt c) y (l ++ [(VInt c, x)]) = l ++ [(VInt c, y)].
Proof. intros Hk Hlt. rewrite ainsert_app_above, ainsert_int_cons, Z.ltb_irrefl, Z.eqb_refl by assumption. reflexivity. Qed.

(* the step of the folds that rebuild a sorted fiber element by element, in the shape fold_left_snoc asks for *)
Lemma ainsert_next {A} acc (ct : value * A) l : int_sorted (acc ++ ct :: l) ->
  alookup (fst ct) acc = None /\ ainsert (fst ct) (snd ct) acc = acc ++ [ct].
Proof.
  intros H. destruct (int_sorted_app_cons acc ct l H) as [z [x [-> [Hk Hlt]]]]. cbn [fst snd]. split.
  - apply alookup_notin; [exact Hk|]. intros a Ha. specialize (Hlt a Ha). lia.
  - exact (ainsert_above z x acc Hk Hlt).
Qed.

Lemma alookup_ainsert {A} c d x (l : list (value * A)) : Forall int_key l ->
  alookup (VInt d) (ainsert (VInt c) x l) = if d =? c then Some x else alookup (VInt d) l.
Proof.
  revert l. refine (int_keys_ind _ _ _); [apply alookup_int_cons|]. intros z y l Hk IH.
  rewrite ainsert_int_cons. destruct (Z.ltb_spec c z); [apply alookup_int_cons|].
  destruct (Z.eqb_spec c z) as [->|Hne]; rewrite !alookup_int_cons; [destruct (d =? z); reflexivity|].
  rewrite IH. destruct (Z.eqb_spec d z); destruct (Z.eqb_spec d c); try reflexivity; lia.
Qed.

Lemma ainsert_In {A} c x (l : list (value * A)) y : In y (ainsert c x l) -> y = (c, x) \/ In y l.
Proof.
  induction l as [|[c' x'] l IH]; cbn [ainsert In]; [intuition congruence|].
  destruct (vltb c c'); [cbn [In]; intuition congruence|]. destruct (veqb c c'); cbn [In]; intuition congruence.
Qed.

Lemma ainsert_Forall {A} (P : value * A -> Prop) c x l : P (c, x) -> Forall P l -> Forall P (ainsert c x l).
Proof. rewrite !Forall_forall. intros Hx Hl y Hy. apply ainsert_In in Hy as [->|Hy]; [exact Hx|exact (Hl y Hy)]. Qed.

Lemma ainsert_nonempty {A} c x (l : list (value * A)) : ainsert c x l <> [].
Proof. destruct l as [|[c' y] l]; cbn [ainsert]; [discriminate|]. destruct (vltb c c'); [discriminate|]. destruct (veqb c c'); discriminate. Qed.

Lemma ainsert_sorted {A} c x (l : list (value * A)) : int_sorted l -> int_sorted (ainsert (VInt c) x l).
Proof.
  revert l. refine (int_sorted_ind _ _ _); [apply int_sorted_cons; [apply int_sorted_nil|intros b []]|]. intros z y l Hl Hlt IH.
  rewrite ainsert_int_cons. destruct (Z.ltb_spec c z); [|destruct (Z.eqb_spec c z) as [->|Hne]].
  - apply int_sorted_cons; [apply int_sorted_cons; assumption|]. intros b [<-|Hb]; [exact H|]. specialize (Hlt b Hb). lia.
  - apply int_sorted_cons; assumption.
  - apply int_sorted_cons; [exact IH|]. intros b Hb. apply ainsert_In in Hb as [->|Hb]; [rewrite kz_VInt; lia|exact (Hlt b Hb)].
Qed.

Lemma alookup_In {A} c s (l : list (value * A)) : Forall int_key l -> alookup (VInt c) l = Some s -> In (VInt c, s) l.
Proof.
  revert l. refine (int_keys_ind _ _ _); [discriminate|]. intros z y l Hk IH.
  rewrite alookup_int_cons. destruct (Z.eqb_spec c z) as [->|_]; [intros [= ->]; left; reflexivity|right; apply IH; assumption].
Qed.

Lemma In_alookup {A} c s (l : list (value * A)) : int_sorted l -> In (VInt c, s) l -> alookup (VInt c) l = Some s.
Proof.
  revert l. refine (int_sorted_ind _ _ _); [intros []|]. intros z y l Hl Hlt IH H.
  rewrite alookup_int_cons. destruct H as [[= -> ->]|H]; [rewrite Z.eqb_refl; reflexivity|].
  specialize (Hlt _ H). rewrite kz_VInt in Hlt. destruct (Z.eqb_spec c z); [lia|exact (IH H)].
Qed.

Lemma asort_sorted {A} (l : list (value * A)) : int_sorted l -> asort l = l.
Proof.
  intros H. apply (fold_left_snoc _ (fun acc => acc) int_sorted); [|exact H].
  intros acc ct l' H'. apply (ainsert_next acc ct l' H').
Qed.

Lemma tmerge_append fuel la lb : int_sorted (la ++ lb) ->
  tmerge (S fuel) (TNode la) (TNode lb) = TNode (la ++ lb).
Proof.
  intros H. cbn [tmerge]. f_equal. apply (fold_left_snoc _ (fun acc => acc) int_sorted); [|exact H].
  intros acc ct l' H'. destruct (ainsert_next acc ct l' H') as [-> ->]. reflexivity.
Qed.

Lemma merge_fold_concat fuel ll : forall acc, int_sorted (acc ++ concat ll) ->
  fold_left (fun acc l' => tmerge (S fuel) acc (TNode (asort l'))) ll (TNode acc) = TNode (acc ++ concat ll).
Proof.
  induction ll as [|l' ll IH]; intros acc H; cbn [fold_left concat] in *; [rewrite app_nil_r; reflexivity|].
  rewrite app_assoc in H. pose proof (proj1 (proj1 (int_sorted_app _ _) H)) as H1.
  rewrite asort_sorted by apply (int_sorted_app acc l'), H1. rewrite tmerge_append by exact H1.
  rewrite IH by exact H. rewrite <- app_assoc. reflexivity.
Qed.

Lemma all_some_map_in {A B} (f : A -> option B) (g : A -> B) l :
  (forall x, In x l -> f x = Some (g x)) -> all_some (map f l) = Some (map g l).
Proof.
  induction l as [|x l IH]; intros H; cbn [map all_some]; [reflexivity|].
  rewrite (H x (or_introl eq_refl)), IH; [reflexivity|]. intros y Hy. apply H. right. exact Hy.
Qed.

Lemma all_some_map_Some {A B} (f : A -> B) l : all_some (map (fun x => Some (f x)) l) = Some (map f l).
Proof. apply all_some_map_in. reflexivity. Qed.

Definition lowers (parts : list (value * trie)) : list (list (value * trie)) :=
  map (fun pt => tchildren (snd pt)) parts.
Definition all_nodes (parts : list (value * trie)) : Prop :=
  Forall (fun pt => exists l', snd pt = TNode l') parts.

(* every split-then-merge law below is an instance: the partitions of a split are consecutive pieces of a sorted fiber *)
Theorem merge1_concat parts : all_nodes parts -> int_sorted (concat (lowers parts)) ->
  merge1 (TNode parts) = Some (TNode (concat (lowers parts))).
Proof.
  intros Hn Hs. unfold merge1. rewrite (all_some_map_in _ (fun pt => tchildren (snd pt))).
  - fold (lowers parts). rewrite (merge_fold_concat _ (lowers parts) []); [reflexivity|exact Hs].
  - unfold all_nodes in Hn. rewrite Forall_forall in Hn. intros pt Hpt. destruct (Hn pt Hpt) as [l' ->]. reflexivity.
Qed.

Definition partition_of (l parts : list (value * trie)) : Prop := all_nodes parts /\ concat (lowers parts) = l.

Corollary merge1_partition l parts : partition_of l parts -> int_sorted l -> merge1 (TNode parts) = Some (TNode l).
Proof. intros [Hn <-]. apply merge1_concat. exact Hn. Qed.

Lemma partition_of_map {I} (k : I -> value) (s : I -> list (value * trie)) idx l :
  concat (map s idx) = l -> partition_of l (map (fun i => (k i, TNode (s i))) idx).
Proof.
  intros H. split; [apply Forall_map, Forall_forall; intros i _; exists (s i); reflexivity|].
  unfold lowers. rewrite map_map. exact H.
Qed.

Lemma zinsert_In z l x : In x (zinsert z l) <-> x = z \/ In x l.
Proof.
  induction l as [|y l IH]; cbn [zinsert In]; [intuition congruence|].
  destruct (Z.ltb_spec z y); [cbn [In]; intuition congruence|]. destruct (Z.eqb_spec z y); cbn [In]; [subst; intuition congruence|]. rewrite IH. intuition congruence.
Qed.

Lemma zinsert_sorted z l : StronglySorted Z.lt l -> StronglySorted Z.lt (zinsert z l).
Proof.
  induction 1 as [|y l Hs IH Hf]; cbn [zinsert]; [repeat constructor|].
  destruct (Z.ltb_spec z y).
  - constructor; [constructor; assumption|]. constructor; [assumption|].
    rewrite Forall_forall in *. intros x Hx. specialize (Hf x Hx). lia.
  - destruct (Z.eqb_spec z y); [constructor; assumption|]. constructor; [exact IH|].
    rewrite Forall_forall in *. intros x Hx. apply zinsert_In in Hx. destruct Hx as [->|Hx]; [lia|apply Hf; exact Hx].
Qed.

Lemma zrange_In k n : forall lo, In k (zrange lo n) <-> lo <= k < lo + Z.of_nat n.
Proof.
  induction n as [|n IH]; intros lo; cbn [zrange In]; [lia|]. rewrite IH. lia.
Qed.

(* the upper coordinates splitUniform creates, as a function of the (integer) coordinates *)
Definition su_starts (step pre post : Z) (cs : list Z) : list Z :=
  fold_left (fun acc c =>
               let kmin := (c - step - post) / step + 1 in
               let kmax := (c + pre) / step in
               fold_left (fun acc k => if 0 <=? k then zinsert (step * k) acc else acc)
                         (zrange kmin (Z.to_nat (kmax - kmin + 1))) acc) cs [].

(* its two nested loops are one loop: over the candidate partition indices k of every coordinate (su_ks),
   inserting step * k for every k >= 0 (su_ins) *)
Definition su_ks (step pre post c : Z) : list Z :=
  zrange ((c - step - post) / step + 1) (Z.to_nat ((c + pre) / step - ((c - step - post) / step + 1) + 1)).
Definition su_ins (step : Z) (acc : list Z) (k : Z) : list Z := if 0 <=? k then zinsert (step * k) acc else acc.

Lemma su_starts_flat step pre post cs :
  su_starts step pre post cs = fold_left (su_ins step) (flat_map (su_ks step pre post) cs) [].
Proof. symmetry. apply fold_left_flat_map. Qed.

Lemma su_ks_In step pre post c k : 0 < step ->
  In k (su_ks step pre post c) <-> step * k - pre <= c < step * k + step + post.
Proof.
  intros Hs. unfold su_ks. rewrite zrange_In.
  pose proof (div_lt_iff step (c - step - post) k Hs). pose proof (div_ge_iff step (c + pre) k Hs). lia.
Qed.

Lemma su_ins_In step acc k x : In x (su_ins step acc k) <-> In x acc \/ 0 <= k /\ x = step * k.
Proof. unfold su_ins. destruct (Z.leb_spec 0 k); rewrite ?zinsert_In; intuition lia. Qed.

Lemma fold_su_ins_In step ks x : forall acc,
  In x (fold_left (su_ins step) ks acc) <-> In x acc \/ exists k, In k ks /\ 0 <= k /\ x = step * k.
Proof.
  induction ks as [|k ks IH]; intros acc; cbn [fold_left]; [split; [tauto|intros [H|[k [[] _]]]; exact H]|].
  rewrite IH, su_ins_In. cbn [In]. split.
  - intros [[H|H]|[k' H]]; [left; exact H|right; exists k; tauto|right; exists k'; tauto].
  - intros [H|[k' [[<-|H1] H2]]]; [tauto|tauto|right; exists k'; tauto].
Qed.

Lemma fold_su_ins_sorted step ks : forall acc, StronglySorted Z.lt acc -> StronglySorted Z.lt (fold_left (su_ins step) ks acc).
Proof.
  induction ks as [|k ks IH]; intros acc H; [exact H|]. apply IH. unfold su_ins.
  destruct (0 <=? k); [apply zinsert_sorted|]; exact H.
Qed.

Lemma su_starts_spec step pre post cs : 0 < step ->
  StronglySorted Z.lt (su_starts step pre post cs) /\
  (forall x, In x (su_starts step pre post cs) <->
             exists c k, In c cs /\ 0 <= k /\ x = step * k /\ x - pre <= c < x + step + post).
Proof.
  intros Hs. rewrite su_starts_flat. split; [apply fold_su_ins_sorted; constructor|].
  intros x. rewrite fold_su_ins_In. cbn [In]. split.
  - intros [[]|[k [Hk [H0 ->]]]]. apply in_flat_map in Hk as [c [Hc Hk]]. apply su_ks_In in Hk; [|exact Hs].
    exists c, k. tauto.
  - intros [c [k [Hc [H0 [-> Hr]]]]]. right. exists k. split; [|tauto].
    apply in_flat_map. exists c. split; [exact Hc|apply su_ks_In; assumption].
Qed.

Lemma coords_int (l : list (value * trie)) : Forall int_key l ->
  all_some (map (fun ct => coordZ (fst ct)) l) = Some (map kz l).
Proof.
  intros Hk. apply all_some_map_in. rewrite Forall_forall in Hk. intros ct Hct.
  destruct (int_key_inv ct (Hk ct Hct)) as [z [x ->]]. reflexivity.
Qed.

(* partition p of splitUniform(step, pre, post) *)
Definition su_sel (step pre post p : Z) (l : list (value * trie)) : list (value * trie) :=
  filter (fun ct => (p - pre <=? kz ct) && (kz ct <? p + step + post)) l.

Lemma su_sel_In step pre post p l ct : In ct (su_sel step pre post p l) <-> In ct l /\ p - pre <= kz ct < p + step + post.
Proof. unfold su_sel. rewrite filter_In. split; intros [H1 H2]; (split; [exact H1|lia]). Qed.

Lemma su_sel_upper step k l : 0 < step ->
  su_sel step 0 0 (step * k) l = filter (fun ct => upper step (kz ct) =? step * k) l.
Proof. intros Hs. apply filter_ext. intros ct. pose proof (upper_eq_iff step (kz ct) k Hs). lia. Qed.

Definition su_parts (step pre post : Z) (l : list (value * trie)) : list (value * trie) :=
  map (fun p => (VInt p, TNode (su_sel step pre post p l))) (su_starts step pre post (map kz l)).

Lemma split_uniform_eq step pre post l : 0 < step -> Forall int_key l ->
  split_uniform step pre post (TNode l) =
  Some (TNode (map (fun p => (VInt p, TNode (su_sel step pre post p l))) (su_starts step pre post (map kz l)))).
Proof.
  intros Hs Hk. unfold split_uniform. destruct (Z.leb_spec step 0); [lia|].
  rewrite coords_int by exact Hk. fold (su_starts step pre post (map kz l)).
  do 2 f_equal. apply map_ext. intros p. do 2 f_equal. unfold su_sel. apply filter_ext_in.
  intros ct Hin. rewrite Forall_forall in Hk. destruct (int_key_inv ct (Hk _ Hin)) as [z [x ->]]. reflexivity.
Qed.

Lemma su_parts_sorted step pre post l : 0 < step -> int_sorted (su_parts step pre post l).
Proof.
  intros Hs. split; [apply Forall_map, Forall_forall; intros p _; apply int_key_VInt|].
  apply SS_map_iff. exact (proj1 (su_starts_spec step pre post (map kz l) Hs)).
Qed.

Lemma su_parts_In step pre post l pt : 0 < step ->
  In pt (su_parts step pre post l) <->
  exists k ct, 0 <= k /\ In ct l /\ step * k - pre <= kz ct < step * k + step + post /\
               pt = (VInt (step * k), TNode (su_sel step pre post (step * k) l)).
Proof.
  intros Hs. destruct (su_starts_spec step pre post (map kz l) Hs) as [_ Hin]. unfold su_parts. rewrite in_map_iff. split.
  - intros [p [<- Hp]]. apply Hin in Hp as [c [k [Hc [Hk0 [-> Hr]]]]].
    apply in_map_iff in Hc as [ct [<- Hct]]. exists k, ct. tauto.
  - intros [k [ct [Hk0 [Hct [Hr ->]]]]]. exists (step * k). split; [reflexivity|]. apply Hin.
    exists (kz ct), k. split; [apply in_map; exact Hct|]. tauto.
Qed.

Lemma su_starts_home step pre post cs c : 0 < step -> 0 <= pre -> 0 <= post -> In c cs -> 0 <= c ->
  In (upper step c) (su_starts step pre post cs).
Proof.
  intros Hs Hpre Hpost Hc H0. apply su_starts_spec; [exact Hs|]. exists c, (c / step). fold (upper step c).
  pose proof (upper_covers step c Hs). pose proof (div_ge_iff step c 0 Hs). repeat split; (assumption || lia).
Qed.

Lemma su_parts_home step pre post l ct : 0 < step -> 0 <= pre -> 0 <= post -> In ct l -> 0 <= kz ct ->
  In (VInt (upper step (kz ct)), TNode (su_sel step pre post (upper step (kz ct)) l)) (su_parts step pre post l).
Proof.
  intros Hs Hpre Hpost Hct H0. apply (in_map (fun p => (VInt p, TNode (su_sel step pre post p l)))).
  apply su_starts_home; try assumption. apply in_map. exact Hct.
Qed.

Lemma classes_concat {A} (w : A -> Z) (starts : list Z) : StronglySorted Z.lt starts -> forall (l : list A),
  StronglySorted (fun a b => w a <= w b) l -> (forall a, In a l -> In (w a) starts) ->
  concat (map (fun p => filter (fun a => w a =? p) l) starts) = l.
Proof.
  induction 1 as [|p ps Hs IH Hf]; intros l Hl Hin; cbn [map concat].
  - destruct l as [|a l]; [reflexivity|]. destruct (Hin a (or_introl eq_refl)).
  - rewrite Forall_forall in Hf.
    assert (Hp : forall a, In a l -> p <= w a).
    { intros a Ha. destruct (Hin a Ha) as [<-|H]; [lia|]. specialize (Hf _ H). lia. }
    (* the class of the least start p is a prefix of l; the other classes live in the rest *)
    assert (E : l = filter (fun a => w a =? p) l ++ filter (fun a => negb (w a =? p)) l).
    { apply filter_split. revert Hl. apply SS_impl. intros a b Ha _ Hab. specialize (Hp a Ha). lia. }
    etransitivity; [|symmetry; exact E]. f_equal. rewrite <- (IH (filter (fun a => negb (w a =? p)) l)).
    + f_equal. apply map_ext_in. intros q Hq. rewrite filter_filter. apply filter_ext. intros a. specialize (Hf q Hq). lia.
    + apply SS_filter. exact Hl.
    + intros a Ha. apply filter_In in Ha as [Ha Hne]. destruct (Hin a Ha) as [E'|H]; [lia|exact H].
Qed.

Lemma su_partition step l : 0 < step -> int_sorted l -> nonneg_keys l -> partition_of l (su_parts step 0 0 l).
Proof.
  intros Hs [Hk Hsort] Hnn. apply partition_of_map.
  destruct (su_starts_spec step 0 0 (map kz l) Hs) as [Hss Hin].
  etransitivity; [|apply (classes_concat (fun ct => upper step (kz ct)) _ Hss l)].
  - f_equal. apply map_ext_in. intros p Hp. apply Hin in Hp as [_ [k [_ [_ [-> _]]]]]. apply su_sel_upper. exact Hs.
  - revert Hsort. apply SS_impl. intros a b _ _ Hab. apply upper_mono; lia.
  - intros ct Hct. apply su_starts_home; [exact Hs|lia|lia|apply in_map; exact Hct|exact (nonneg_keys_In l ct Hnn Hct)].
Qed.

(* splitUniform(step) without halos cuts a sorted non-negative integer fiber into consecutive pieces *)
Theorem split_uniform_partition step l : 0 < step -> int_sorted l -> nonneg_keys l ->
  exists parts, split_uniform step 0 0 (TNode l) = Some (TNode parts) /\
    int_sorted parts /\
    Forall (fun pt => exists k, 0 <= k /\ pt = (VInt (step * k), TNode (su_sel step 0 0 (step * k) l)) /\
                                su_sel step 0 0 (step * k) l <> []) parts /\
    (forall ct, In ct l -> In (VInt (upper step (kz ct)), TNode (su_sel step 0 0 (upper step (kz ct)) l)) parts) /\
    concat (lowers parts) = l.
Proof.
  intros Hs Hl Hnn. exists (su_parts step 0 0 l). split; [apply split_uniform_eq; [exact Hs|apply Hl]|].
  split; [apply su_parts_sorted; exact Hs|]. split; [|split].
  - rewrite Forall_forall. intros pt Hpt. apply su_parts_In in Hpt as [k [ct [Hk [Hct [Hr ->]]]]]; [|exact Hs].
    exists k. split; [exact Hk|]. split; [reflexivity|]. intros E.
    assert (Hx : In ct (su_sel step 0 0 (step * k) l)) by (apply su_sel_In; tauto). rewrite E in Hx. destruct Hx.
  - intros ct Hct. apply su_parts_home; [exact Hs|lia|lia|exact Hct|exact (nonneg_keys_In l ct Hnn Hct)].
  - apply su_partition; assumption.
Qed.

Theorem split_uniform_merge1 step l : 0 < step -> int_sorted l -> nonneg_keys l ->
  exists t', split_uniform step 0 0 (TNode l) = Some t' /\ merge1 t' = Some (TNode l).
Proof.
  intros Hs Hl Hnn. exists (TNode (su_parts step 0 0 l)). split; [apply split_uniform_eq; [exact Hs|apply Hl]|].
  apply merge1_partition; [apply su_partition; assumption|exact Hl].
Qed.

(* with halos: which partitions exist, and what each one holds (an element may occur in several) *)
Theorem split_uniform_halo step pre post l : 0 < step -> Forall int_key l ->
  exists parts, split_uniform step pre post (TNode l) = Some (TNode parts) /\
    int_sorted parts /\
    (forall pt, In pt parts <->
       exists k ct, 0 <= k /\ In ct l /\ step * k - pre <= kz ct < step * k + step + post /\
                    pt = (VInt (step * k), TNode (su_sel step pre post (step * k) l))) /\
    (forall p ct, In ct (su_sel step pre post p l) <-> In ct l /\ p - pre <= kz ct < p + step + post).
Proof.
  intros Hs Hk. exists (su_parts step pre post l). split; [apply split_uniform_eq; assumption|].
  split; [apply su_parts_sorted; exact Hs|].
  split; [intros pt; apply su_parts_In; exact Hs|intros p ct; apply su_sel_In].
Qed.

Corollary split_uniform_halo_home step pre post l ct : 0 < step -> 0 <= pre -> 0 <= post -> Forall int_key l ->
  In ct l -> 0 <= kz ct ->
  exists parts, split_uniform step pre post (TNode l) = Some (TNode parts) /\
    In (VInt (upper step (kz ct)), TNode (su_sel step pre post (upper step (kz ct)) l)) parts /\
    In ct (su_sel step pre post (upper step (kz ct)) l).
Proof.
  intros Hs Hpre Hpost Hk Hct H0. exists (su_parts step pre post l). split; [apply split_uniform_eq; assumption|].
  split; [apply su_parts_home; assumption|]. apply su_sel_In. pose proof (upper_covers step (kz ct) Hs). split; [exact Hct|lia].
Qed.

(* Examples: the hypotheses are satisfiable by a non-trivial fiber *)
Definition ex_leaf z := TLeaf (VInt z).
Definition ex_fiber : list (value * trie) :=
  [(VInt 0, ex_leaf 10); (VInt 1, ex_leaf 11); (VInt 3, ex_leaf 13); (VInt 4, ex_leaf 14); (VInt 7, ex_leaf 17); (VInt 12, ex_leaf 22)].

Ltac prove_int_sorted :=
  split; [repeat constructor; eexists; reflexivity|repeat constructor; cbn; lia].

Example ex_fiber_sorted : int_sorted ex_fiber.
Proof. prove_int_sorted. Qed.
Example ex_fiber_nonneg : nonneg_keys ex_fiber.
Proof. repeat constructor; cbn; lia. Qed.

Example split_uniform_merge1_ex :
  split_uniform 3 0 0 (TNode ex_fiber) =
    Some (TNode [(VInt 0, TNode [(VInt 0, ex_leaf 10); (VInt 1, ex_leaf 11)]);
                 (VInt 3, TNode [(VInt 3, ex_leaf 13); (VInt 4, ex_leaf 14)]);
                 (VInt 6, TNode [(VInt 7, ex_leaf 17)]);
                 (VInt 12, TNode [(VInt 12, ex_leaf 22)])]) /\
  exists t', split_uniform 3 0 0 (TNode ex_fiber) = Some t' /\ merge1 t' = Some (TNode ex_fiber).
Proof.
  split; [vm_compute; reflexivity|].
  apply split_uniform_merge1; [lia|exact ex_fiber_sorted|exact ex_fiber_nonneg].
Qed.

(* with halos the same element sits in several partitions, and merging then ADDS the copies:
   split-with-halo followed by merge is NOT the identity on payloads *)
Example split_uniform_halo_ex :
  split_uniform 3 1 2 (TNode ex_fiber) =
    Some (TNode [(VInt 0, TNode [(VInt 0, ex_leaf 10); (VInt 1, ex_leaf 11); (VInt 3, ex_leaf 13); (VInt 4, ex_leaf 14)]);
                 (VInt 3, TNode [(VInt 3, ex_leaf 13); (VInt 4, ex_leaf 14); (VInt 7, ex_leaf 17)]);
                 (VInt 6, TNode [(VInt 7, ex_leaf 17)]);
                 (VInt 9, TNode [(VInt 12, ex_leaf 22)]);
                 (VInt 12, TNode [(VInt 12, ex_leaf 22)])]) /\
  (exists parts, split_uniform 3 1 2 (TNode ex_fiber) = Some (TNode parts) /\
     In (VInt (upper 3 7), TNode (su_sel 3 1 2 (upper 3 7) ex_fiber)) parts /\
     In (VInt 7, ex_leaf 17) (su_sel 3 1 2 (upper 3 7) ex_fiber)).
Proof.
  split; [vm_compute; reflexivity|].
  apply (split_uniform_halo_home 3 1 2 ex_fiber (VInt 7, ex_leaf 17)); try lia; [apply ex_fiber_sorted|cbn; tauto|cbn; lia].
Qed.

(* the hypothesis nonneg_keys of split_uniform_partition and split_uniform_merge1 is necessary: a negative coordinate is
   dropped by split_uniform *)
Example split_uniform_negative_lost :
  split_uniform 3 0 0 (TNode [(VInt (-2), ex_leaf 10); (VInt 1, ex_leaf 11)]) = Some (TNode [(VInt 0, TNode [(VInt 1, ex_leaf 11)])]).
Proof. vm_compute. reflexivity. Qed.

Lemma int_sorted_heads (chs : list (list (value * trie))) :
  Forall (fun ch => ch <> []) chs -> int_sorted (concat chs) ->
  int_sorted (map (fun ch => (match ch with (c, _) :: _ => c | [] => VNone end, TNode ch)) chs).
Proof.
  intros Hne [Hk Hs]. split.
  - apply Forall_map. rewrite Forall_forall in *. intros [|[c x] ch] Hch; [destruct (Hne _ Hch); reflexivity|].
    apply (Hk (c, x)), in_concat. exists ((c, x) :: ch). split; [exact Hch|left; reflexivity].
  - apply (SS_heads _ (VNone, TLeaf VNone)) in Hs; [|exact Hne]. rewrite SS_map_iff in *. revert Hs. apply SS_impl.
    intros [|[c1 x1] ch1] [|[c2 x2] ch2] _ _ H; exact H.
Qed.

Definition se_parts (n : Z) (l : list (value * trie)) : list (value * trie) :=
  map (fun ch => (match ch with (c, _) :: _ => c | [] => VNone end, TNode ch)) (chunks (S (length l)) (Z.to_nat n) l).

Lemma split_equal_eq n l : 0 < n -> split_equal n (TNode l) = Some (TNode (se_parts n l)).
Proof. intros Hn. unfold split_equal. destruct (Z.leb_spec n 0); [lia|reflexivity]. Qed.

Lemma se_partition n l : 0 < n -> partition_of l (se_parts n l).
Proof. intros Hn. apply (partition_of_map _ (fun ch => ch)). rewrite map_id. apply chunks_concat; lia. Qed.

Theorem split_equal_merge1 n l : 0 < n -> int_sorted l ->
  exists t', split_equal n (TNode l) = Some t' /\ merge1 t' = Some (TNode l).
Proof.
  intros Hn Hl. exists (TNode (se_parts n l)). split; [apply split_equal_eq; exact Hn|].
  apply merge1_partition; [apply se_partition; exact Hn|exact Hl].
Qed.

(* the chunks are consecutive, non-empty, of n elements (but possibly the last), and each chunk's upper
   coordinate is its first coordinate *)
Theorem split_equal_partition n l : 0 < n -> int_sorted l ->
  exists parts, split_equal n (TNode l) = Some (TNode parts) /\
    concat (lowers parts) = l /\
    int_sorted parts /\
    Forall (fun pt => exists c x ch, pt = (c, TNode ((c, x) :: ch)) /\ (length ((c, x) :: ch) <= Z.to_nat n)%nat) parts /\
    (forall pre pt post, parts = pre ++ pt :: post -> post <> [] -> length (tchildren (snd pt)) = Z.to_nat n).
Proof.
  intros Hn Hl. exists (se_parts n l). split; [apply split_equal_eq; exact Hn|].
  split; [apply se_partition; exact Hn|]. unfold se_parts.
  assert (Hn' : (0 < Z.to_nat n)%nat) by lia. assert (Hf : (length l < S (length l))%nat) by lia.
  pose proof (chunks_sizes (Z.to_nat n) Hn' _ l Hf) as Hsz. split; [|split].
  - apply int_sorted_heads; [revert Hsz; apply Forall_impl; tauto|]. rewrite chunks_concat by assumption. exact Hl.
  - apply Forall_map. revert Hsz. apply Forall_impl. intros [|[c x] ch] [Hne Hle]; [congruence|].
    exists c, x, ch. split; [reflexivity|exact Hle].
  - intros pre pt post E Hpost. apply map_eq_app in E as [l1 [l2 [E [E1 E2]]]].
    apply map_eq_cons in E2 as [ch [l3 [E2 [E3 E4]]]]. subst l2 pt post. cbn [snd tchildren].
    apply (chunks_full (Z.to_nat n) Hn' _ l Hf l1 ch l3 E). intros ->. apply Hpost. reflexivity.
Qed.

Example split_equal_merge1_ex :
  split_equal 4 (TNode ex_fiber) =
    Some (TNode [(VInt 0, TNode [(VInt 0, ex_leaf 10); (VInt 1, ex_leaf 11); (VInt 3, ex_leaf 13); (VInt 4, ex_leaf 14)]);
                 (VInt 7, TNode [(VInt 7, ex_leaf 17); (VInt 12, ex_leaf 22)])]) /\
  exists t', split_equal 4 (TNode ex_fiber) = Some t' /\ merge1 t' = Some (TNode ex_fiber).
Proof. split; [vm_compute; reflexivity|]. apply split_equal_merge1; [lia|exact ex_fiber_sorted]. Qed.

Definition wf2 (l : list (value * trie)) : Prop :=
  int_sorted l /\ Forall (fun ct => exists l', snd ct = TNode l' /\ int_sorted l' /\ l' <> []) l.

Definition fl2 (l : list (value * trie)) : list (value * trie) :=
  concat (map (fun ct => map (fun ct' => (VTuple [fst ct; fst ct'], snd ct')) (tchildren (snd ct))) l).

Lemma flatten1_eq l : wf2 l -> flatten1 (TNode l) = Some (TNode (fl2 l)).
Proof.
  intros [[Hk _] Hc]. unfold flatten1, fl2.
  rewrite (all_some_map_in _ (fun ct => map (fun ct' => (VTuple [fst ct; fst ct'], snd ct')) (tchildren (snd ct)))); [reflexivity|].
  intros ct Hct. rewrite Forall_forall in Hk, Hc. destruct (Hc _ Hct) as [l' [E [[Hk' _] _]]]. destruct (Hk _ Hct) as [a Ha].
  rewrite E. cbn [tchildren]. f_equal. apply map_ext_in. intros ct' Hct'. rewrite Forall_forall in Hk'.
  destruct (Hk' _ Hct') as [b Hb]. rewrite Ha, Hb. reflexivity.
Qed.

Definition uf_step (acc : trie) (ps : list value * trie) : trie :=
  match ps with
  | ([a; b], s) =>
      let sub := match alookup a (tchildren acc) with Some s' => tchildren s' | None => [] end in
      TNode (ainsert a (TNode (ainsert b s sub)) (tchildren acc))
  | _ => acc end.

Definition ps2 (l : list (value * trie)) : list (list value * trie) :=
  concat (map (fun ct => map (fun ct' => ([fst ct; fst ct'], snd ct')) (tchildren (snd ct))) l).

Lemma unflatten1_eq l : unflatten1 (TNode (fl2 l)) = Some (fold_left uf_step (ps2 l) (TNode [])).
Proof.
  unfold unflatten1. fold uf_step.
  rewrite (all_some_map_in _ (fun ct => match fst ct with VTuple [a; b] => ([a; b], snd ct) | _ => ([], snd ct) end)).
  - do 2 f_equal. unfold fl2, ps2. rewrite concat_map, map_map. f_equal. apply map_ext. intros ct. rewrite map_map. reflexivity.
  - intros x Hx. unfold fl2 in Hx. apply in_concat in Hx. destruct Hx as [lx [H1 H2]]. apply in_map_iff in H1.
    destruct H1 as [ct [<- _]]. apply in_map_iff in H2. destruct H2 as [ct' [<- _]]. reflexivity.
Qed.

(* the paths below upper coordinate a, once a is the last entry of the result: they extend its child *)
Lemma uf_inner a pre l' cur : Forall int_key pre -> (forall x, In x pre -> kz x < a) -> int_sorted (cur ++ l') ->
  fold_left uf_step (map (fun ct' => ([VInt a; fst ct'], snd ct')) l') (TNode (pre ++ [(VInt a, TNode cur)])) =
  TNode (pre ++ [(VInt a, TNode (cur ++ l'))]).
Proof.
  intros Hk Hlt. rewrite fold_left_map.
  apply (fold_left_snoc _ (fun cur => TNode (pre ++ [(VInt a, TNode cur)])) int_sorted).
  intros acc ct l H. cbn [uf_step tchildren]. rewrite alookup_last by assumption. cbn [tchildren].
  destruct (ainsert_next acc ct l H) as [_ ->]. rewrite ainsert_last by assumption. reflexivity.
Qed.

(* the paths of one upper element append that element: the first creates it, uf_inner adds the others *)
Lemma uf_outer l pre : wf2 (pre ++ l) -> fold_left uf_step (ps2 l) (TNode pre) = TNode (pre ++ l).
Proof.
  unfold ps2. rewrite <- flat_map_concat_map, fold_left_flat_map. apply (fold_left_snoc _ TNode wf2).
  clear. intros acc ct rest [Hs Hc]. apply Forall_app in Hc as [_ Hc]. apply Forall_cons_iff in Hc as [[l' [E [Hl' Hne]]] _].
  destruct (int_sorted_app_cons acc ct rest Hs) as [a [t [-> [Hk Hlt]]]]. cbn [fst snd] in *. subst t. cbn [tchildren].
  destruct l' as [|[b s] l']; [congruence|]. cbn [map fold_left fst snd uf_step tchildren].
  rewrite alookup_notin; [|exact Hk|intros x Hx; specialize (Hlt x Hx); lia].
  cbn [ainsert]. rewrite ainsert_above by assumption. exact (uf_inner a acc l' [(b, s)] Hk Hlt Hl').
Qed.

Theorem flatten1_unflatten1 l : wf2 l ->
  exists t', flatten1 (TNode l) = Some t' /\ unflatten1 t' = Some (TNode l).
Proof.
  intros H. exists (TNode (fl2 l)). split; [apply flatten1_eq; exact H|].
  rewrite unflatten1_eq, (uf_outer l [] H). reflexivity.
Qed.

Definition pair2 (pv : list value * value) : list value * value :=
  match fst pv with a :: b :: r => (VTuple [a; b] :: r, snd pv) | _ => pv end.

Lemma paths_node l : paths (TNode l) = flat_map (fun ct => map (fun pv => (fst ct :: fst pv, snd pv)) (paths (snd ct))) l.
Proof. reflexivity. Qed.

Theorem flatten1_paths l : wf2 l -> paths (TNode (fl2 l)) = map pair2 (paths (TNode l)).
Proof.
  intros [_ Hc]. rewrite !paths_node. unfold fl2. induction Hc as [|ct l [l' [E _]] Hc IH]; [reflexivity|].
  cbn [map concat flat_map]. rewrite flat_map_app, map_app, IH. f_equal. clear IH.
  rewrite E. cbn [tchildren]. rewrite paths_node. generalize (fst ct) as a. intros a. clear E.
  induction l' as [|ct' l' IH']; [reflexivity|]. cbn [map flat_map]. rewrite !map_app, IH'. f_equal.
  rewrite !map_map. apply map_ext. intros pv. reflexivity.
Qed.

Lemma vltb_tuple2 a b a' b' :
  vltb (VTuple [VInt a; VInt b]) (VTuple [VInt a'; VInt b']) = (a <? a') || ((a =? a') && (b <? b')).
Proof.
  unfold vltb. cbn [vcmp as_num ncmp]. destruct (Z.compare_spec a a'); destruct (Z.ltb_spec a a'); destruct (Z.eqb_spec a a'); try lia; cbn [orb andb]; try reflexivity.
  destruct (Z.compare_spec b b'); destruct (Z.ltb_spec b b'); try lia; reflexivity.
Qed.

Definition tuple_key (ct : value * trie) : Prop := exists a b, fst ct = VTuple [VInt a; VInt b].

Lemma fl2_int l : wf2 l ->
  fl2 l = concat (map (fun ct => map (fun c => (VTuple [VInt (kz ct); VInt (kz c)], snd c)) (tchildren (snd ct))) l).
Proof.
  intros [[Hk _] Hc]. rewrite Forall_forall in Hk, Hc. unfold fl2. f_equal. apply map_ext_in. intros ct Hct.
  destruct (Hc ct Hct) as [l' [E [[Hk' _] _]]]. rewrite Forall_forall in Hk'. rewrite E. apply map_ext_in. intros c Hin.
  rewrite (int_key_fst ct (Hk ct Hct)), (int_key_fst c (Hk' c Hin)). reflexivity.
Qed.

Theorem flatten1_lex_sorted l : wf2 l ->
  Forall tuple_key (fl2 l) /\ StronglySorted (fun x y => vltb (fst x) (fst y) = true) (fl2 l).
Proof.
  intros H. rewrite (fl2_int l H). destruct H as [[_ Hs] Hc]. rewrite Forall_forall in Hc. split.
  - rewrite Forall_forall. intros x Hx. apply in_concat in Hx as [lx [H1 H2]]. apply in_map_iff in H1 as [ct [<- _]].
    apply in_map_iff in H2 as [c [<- _]]. exists (kz ct), (kz c). reflexivity.
  - (* each block is sorted by its second component, and the blocks are ordered by the first *)
    apply SS_concat_iff. split.
    + apply Forall_map, Forall_forall. intros ct Hct. destruct (Hc ct Hct) as [l' [E [[_ Hs'] _]]]. rewrite E. cbn [tchildren].
      apply SS_map_iff. revert Hs'. apply SS_impl. intros c1 c2 _ _ H12. cbn [fst]. rewrite vltb_tuple2. lia.
    + apply SS_map_iff. revert Hs. apply SS_impl. intros ct1 ct2 _ _ H12 x y Hx Hy.
      apply in_map_iff in Hx as [c1 [<- _]]. apply in_map_iff in Hy as [c2 [<- _]]. cbn [fst]. rewrite vltb_tuple2. lia.
Qed.

Definition ex_trie2 : list (value * trie) :=
  [(VInt 0, TNode [(VInt 1, ex_leaf 1); (VInt 5, ex_leaf 2)]); (VInt 2, TNode [(VInt 0, ex_leaf 3)]);
   (VInt 3, TNode [(VInt 0, ex_leaf 4); (VInt 5, ex_leaf 5)])].

Example ex_trie2_wf : wf2 ex_trie2.
Proof.
  split; [prove_int_sorted|]. repeat constructor; eexists; (split; [reflexivity|]); (split; [prove_int_sorted|discriminate]).
Qed.

Example flatten1_unflatten1_ex :
  flatten1 (TNode ex_trie2) =
    Some (TNode [(VTuple [VInt 0; VInt 1], ex_leaf 1); (VTuple [VInt 0; VInt 5], ex_leaf 2); (VTuple [VInt 2; VInt 0], ex_leaf 3);
                 (VTuple [VInt 3; VInt 0], ex_leaf 4); (VTuple [VInt 3; VInt 5], ex_leaf 5)]) /\
  exists t', flatten1 (TNode ex_trie2) = Some t' /\ unflatten1 t' = Some (TNode ex_trie2).
Proof. split; [vm_compute; reflexivity|]. apply flatten1_unflatten1. exact ex_trie2_wf. Qed.

(* non-emptiness of the children is necessary: an empty child disappears in the flattened fiber *)
Example flatten1_empty_child_lost :
  match flatten1 (TNode [(VInt 0, TNode [(VInt 1, ex_leaf 1)]); (VInt 2, TNode [])]) with
  | Some t' => unflatten1 t' | None => None end = Some (TNode [(VInt 0, TNode [(VInt 1, ex_leaf 1)])]).
Proof. vm_compute. reflexivity. Qed.

(* the partition of splitNonUniform between boundary lo and the next boundary hi (None: lo is the last, unbounded above) *)
Definition sb_sel (lo : Z) (hi : option Z) (l : list (value * trie)) : list (value * trie) :=
  filter (fun ct => (lo <=? kz ct) && match hi with Some h => kz ct <? h | None => true end) l.

Fixpoint sbz (zs : list Z) (l : list (value * trie)) : list (value * trie) :=
  match zs with
  | [] => []
  | b :: zs' => match sb_sel b (hd_error zs') l with
                | [] => sbz zs' l
                | sel => (VInt b, TNode sel) :: sbz zs' l
                end
  end.

Lemma split_bounds_eq zs l : Forall int_key l -> split_bounds (map VInt zs) l = sbz zs l.
Proof.
  intros Hk. induction zs as [|b zs IH]; [reflexivity|]. cbn [map split_bounds sbz]. rewrite IH. unfold sb_sel.
  rewrite (filter_ext_in _ (fun ct => (b <=? kz ct) && match hd_error zs with Some h => kz ct <? h | None => true end) l);
    [destruct (filter _ l); reflexivity|].
  intros ct Hct. rewrite Forall_forall in Hk. destruct (int_key_inv ct (Hk _ Hct)) as [z [x ->]].
  cbn [fst]. rewrite vleb_int, kz_VInt. destruct zs as [|b' zs]; cbn [map hd_error]; [reflexivity|]. rewrite vltb_int. reflexivity.
Qed.

Lemma split_nonuniform_eq zs l : Forall int_key l -> split_nonuniform (map VInt zs) (TNode l) = Some (TNode (sbz zs l)).
Proof. intros Hk. unfold split_nonuniform. rewrite split_bounds_eq by exact Hk. reflexivity. Qed.

Lemma sbz_lowers b zs l : concat (lowers (sbz (b :: zs) l)) = sb_sel b (hd_error zs) l ++ concat (lowers (sbz zs l)).
Proof. cbn [sbz]. destruct (sb_sel b (hd_error zs) l) eqn:E; [reflexivity|]. cbn [lowers map concat snd tchildren]. reflexivity. Qed.

Lemma sbz_all_nodes zs l : all_nodes (sbz zs l).
Proof.
  induction zs as [|b zs IH]; [constructor|]. cbn [sbz].
  destruct (sb_sel b (hd_error zs) l); [exact IH|]. constructor; [eexists; reflexivity|exact IH].
Qed.

Lemma sbz_concat_ge zs : StronglySorted Z.lt zs -> forall l, StronglySorted (fun a b => kz a < kz b) l ->
  concat (lowers (sbz zs l)) = match zs with b0 :: _ => filter (fun ct => b0 <=? kz ct) l | [] => [] end.
Proof.
  induction 1 as [|b zs Hs IH Hf]; intros l Hl; [reflexivity|]. rewrite sbz_lowers, IH by exact Hl. unfold sb_sel.
  destruct zs as [|b' zs]; cbn [hd_error]; [rewrite app_nil_r; apply filter_ext; intros ct; lia|].
  apply Forall_inv in Hf. rewrite (filter_split (fun ct => kz ct <? b') (filter (fun ct => b <=? kz ct) l))
    by (apply SS_filter; revert Hl; apply SS_impl; intros x y _ _ Hxy; lia).
  rewrite !filter_filter. f_equal; apply filter_ext; intros ct; lia.
Qed.

Lemma sbz_partition zs l : StronglySorted Z.lt zs -> int_sorted l ->
  match zs with b0 :: _ => forall ct, In ct l -> b0 <= kz ct | [] => l = [] end -> partition_of l (sbz zs l).
Proof.
  intros Hzs [_ Hl] Hlo. split; [apply sbz_all_nodes|]. rewrite sbz_concat_ge by assumption.
  destruct zs as [|b0 zs]; [symmetry; exact Hlo|]. apply filter_all. intros ct Hct. specialize (Hlo ct Hct). lia.
Qed.

Definition sb_part (zs : list Z) (l : list (value * trie)) (pt : value * trie) : Prop :=
  exists b sel, pt = (VInt b, TNode sel) /\ sel <> [] /\ In b zs /\
                forall ct, In ct sel <-> In ct l /\ in_part zs b (kz ct).

Lemma sbz_spec zs l : StronglySorted Z.lt zs -> Forall (sb_part zs l) (sbz zs l).
Proof.
  induction 1 as [|b zs Hs IH Hf]; [constructor|]. cbn [sbz]. rewrite Forall_forall in Hf.
  (* a boundary of the tail is not b, and b is not a boundary of the tail: in_part_cons has one live case each time *)
  assert (IH' : Forall (sb_part (b :: zs) l) (sbz zs l)).
  { revert IH. apply Forall_impl. intros pt [b' [sel [-> [Hne [Hin Hsel]]]]]. exists b', sel.
    split; [reflexivity|]. split; [exact Hne|]. split; [right; exact Hin|].
    intros ct. rewrite Hsel, in_part_cons. specialize (Hf b' Hin). intuition lia. }
  destruct (sb_sel b (hd_error zs) l) as [|x sel] eqn:E; [exact IH'|]. constructor; [|exact IH'].
  exists b, (x :: sel). split; [reflexivity|]. split; [discriminate|]. split; [left; reflexivity|].
  intros ct. rewrite <- E, in_part_cons. unfold sb_sel. rewrite filter_In.
  assert (Hnb : ~ in_part zs b (kz ct)) by (intros H; apply in_part_In in H as [Hin _]; specialize (Hf b Hin); lia).
  destruct zs; cbn [hd_error]; intuition lia.
Qed.

Lemma sbz_sorted zs l : StronglySorted Z.lt zs -> int_sorted (sbz zs l).
Proof.
  induction 1 as [|b zs Hs IH Hf]; [apply int_sorted_nil|]. cbn [sbz].
  destruct (sb_sel b (hd_error zs) l) eqn:E; [exact IH|]. apply int_sorted_cons; [exact IH|].
  pose proof (sbz_spec zs l Hs) as Hsp. rewrite Forall_forall in Hsp, Hf. intros pt Hpt.
  destruct (Hsp _ Hpt) as [b0 [sel [-> [_ [Hin _]]]]]. rewrite kz_VInt. exact (Hf b0 Hin).
Qed.

(* splitNonUniform(boundaries) cuts a sorted integer fiber into consecutive non-empty pieces, one per boundary interval
   [b_j, b_j+1) that holds an element, and mergeRanks undoes it.  Hypotheses: boundaries integer and strictly
   increasing, the first boundary <= every coordinate (otherwise elements are dropped). *)
Theorem split_nonuniform_partition zs l : StronglySorted Z.lt zs -> int_sorted l ->
  match zs with b0 :: _ => forall ct, In ct l -> b0 <= kz ct | [] => l = [] end ->
  exists parts, split_nonuniform (map VInt zs) (TNode l) = Some (TNode parts) /\
    concat (lowers parts) = l /\
    int_sorted parts /\
    Forall (fun pt => exists b sel, pt = (VInt b, TNode sel) /\ sel <> [] /\ In b zs /\
                                    forall ct, In ct sel <-> In ct l /\ in_part zs b (kz ct)) parts /\
    (forall ct, In ct l -> exists b sel, In (VInt b, TNode sel) parts /\ In ct sel /\ part_of zs (kz ct) = Some b).
Proof.
  intros Hzs Hl Hlo. exists (sbz zs l). split; [apply split_nonuniform_eq, Hl|].
  destruct (sbz_partition zs l Hzs Hl Hlo) as [_ Hc]. pose proof (sbz_spec zs l Hzs) as Hsp.
  split; [exact Hc|]. split; [apply sbz_sorted; exact Hzs|].
  split; [exact Hsp|]. intros ct Hct. rewrite <- Hc in Hct. apply in_concat in Hct. destruct Hct as [lx [H1 H2]].
  unfold lowers in H1. apply in_map_iff in H1. destruct H1 as [pt [<- Hpt]]. rewrite Forall_forall in Hsp.
  destruct (Hsp _ Hpt) as [b [sel [-> [_ [_ Hin]]]]]. cbn [snd tchildren] in H2. exists b, sel. split; [exact Hpt|]. split; [exact H2|].
  apply Hin in H2. destruct H2 as [_ H2]. apply (part_of_in_part zs (kz ct) Hzs). exact H2.
Qed.

Theorem split_nonuniform_merge1 zs l : StronglySorted Z.lt zs -> int_sorted l ->
  match zs with b0 :: _ => forall ct, In ct l -> b0 <= kz ct | [] => l = [] end ->
  exists t', split_nonuniform (map VInt zs) (TNode l) = Some t' /\ merge1 t' = Some (TNode l).
Proof.
  intros Hzs Hl Hlo. exists (TNode (sbz zs l)). split; [apply split_nonuniform_eq, Hl|].
  apply merge1_partition; [apply sbz_partition; assumption|exact Hl].
Qed.

Example split_nonuniform_merge1_ex :
  split_nonuniform (map VInt [0; 2; 3; 10]) (TNode ex_fiber) =
    Some (TNode [(VInt 0, TNode [(VInt 0, ex_leaf 10); (VInt 1, ex_leaf 11)]);
                 (VInt 3, TNode [(VInt 3, ex_leaf 13); (VInt 4, ex_leaf 14); (VInt 7, ex_leaf 17)]);
                 (VInt 10, TNode [(VInt 12, ex_leaf 22)])]) /\
  exists t', split_nonuniform (map VInt [0; 2; 3; 10]) (TNode ex_fiber) = Some t' /\ merge1 t' = Some (TNode ex_fiber).
Proof.
  split; [vm_compute; reflexivity|]. apply split_nonuniform_merge1; [repeat constructor; lia|exact ex_fiber_sorted|].
  intros ct. apply nonneg_keys_In. exact ex_fiber_nonneg.
Qed.

(* the hypothesis "first boundary <= every coordinate" is necessary: elements below it are dropped *)
Example split_nonuniform_below_lost :
  split_nonuniform (map VInt [1; 3]) (TNode [(VInt 0, ex_leaf 10); (VInt 1, ex_leaf 11); (VInt 4, ex_leaf 14)]) =
    Some (TNode [(VInt 1, TNode [(VInt 1, ex_leaf 11)]); (VInt 3, TNode [(VInt 4, ex_leaf 14)])]).
Proof. vm_compute. reflexivity. Qed.

Fixpoint wft (n : nat) (t : trie) : Prop :=
  match n with
  | O => exists v, t = TLeaf v
  | S n' => exists l, t = TNode l /\ int_sorted l /\ l <> [] /\ Forall (fun ct => wft n' (snd ct)) l
  end.

Lemma wft_ind (P : nat -> trie -> Prop) :
  (forall v, P O (TLeaf v)) ->
  (forall n l, int_sorted l -> l <> [] -> Forall (fun ct => wft n (snd ct)) l -> Forall (fun ct => P n (snd ct)) l ->
               P (S n) (TNode l)) ->
  forall n t, wft n t -> P n t.
Proof.
  intros H0 HS. induction n as [|n IH]; intros t H; cbn [wft] in H.
  - destruct H as [v ->]. apply H0.
  - destruct H as [l [-> [Hs [Hne Hc]]]]. apply HS; try assumption. revert Hc. apply Forall_impl. intros ct. apply IH.
Qed.

Fixpoint tlookup (p : list value) (t : trie) : option value :=
  match p, t with
  | [], TLeaf v => Some v
  | c :: p', TNode l => match alookup c l with Some s => tlookup p' s | None => None end
  | _, _ => None
  end.
Definition zl (zs : list Z) (t : trie) : option value := tlookup (map VInt zs) t.

Lemma zl_cons c zs l : zl (c :: zs) (TNode l) = match alookup (VInt c) l with Some s => zl zs s | None => None end.
Proof. reflexivity. Qed.
Lemma zl_empty zs : zl zs (TNode []) = None.
Proof. destruct zs; reflexivity. Qed.

(* the invariant of tbuild: it starts from TNode [], which is not well-formed (no level of a well-formed trie is empty) *)
Definition wft_or_empty (n : nat) (t : trie) : Prop := t = TNode [] \/ wft n t.

Lemma wft_or_empty_S n t : wft_or_empty (S n) t -> exists l, t = TNode l /\ int_sorted l /\ Forall (fun ct => wft n (snd ct)) l.
Proof.
  intros [->|[l [-> [Hs [_ Hc]]]]]; [exists []; split; [reflexivity|split; [apply int_sorted_nil|constructor]]|].
  exists l. split; [reflexivity|split; assumption].
Qed.

Definition tsub (c : value) (t : trie) : trie := match alookup c (tchildren t) with Some s => s | None => TNode [] end.

Lemma tinsert_cons c p v t : tinsert (c :: p) v t = TNode (ainsert c (tinsert p v (tsub c t)) (tchildren t)).
Proof. reflexivity. Qed.

Lemma zl_tsub c zs l : zl (c :: zs) (TNode l) = zl zs (tsub (VInt c) (TNode l)).
Proof. rewrite zl_cons. unfold tsub. cbn [tchildren]. destruct (alookup (VInt c) l); [reflexivity|symmetry; apply zl_empty]. Qed.

Lemma tsub_ainsert c d s l : Forall int_key l ->
  tsub (VInt d) (TNode (ainsert (VInt c) s l)) = if d =? c then s else tsub (VInt d) (TNode l).
Proof. intros Hk. unfold tsub. cbn [tchildren]. rewrite alookup_ainsert by exact Hk. destruct (d =? c); reflexivity. Qed.

Lemma wft_or_empty_tsub n c t : wft_or_empty (S n) t -> wft_or_empty n (tsub (VInt c) t).
Proof.
  intros H. apply wft_or_empty_S in H as [l [-> [Hs Hc]]]. unfold tsub. cbn [tchildren].
  destruct (alookup (VInt c) l) as [s|] eqn:E; [right|left; reflexivity].
  apply alookup_In in E; [|apply Hs]. rewrite Forall_forall in Hc. exact (Hc _ E).
Qed.

(* the path has to be new: at a path that is there already tinsert adds to the payload *)
Lemma tinsert_spec : forall zs v t, wft_or_empty (length zs) t -> zl zs t = None ->
  wft (length zs) (tinsert (map VInt zs) v t) /\
  zl zs (tinsert (map VInt zs) v t) = Some v /\
  (forall zs', length zs' = length zs -> zs' <> zs -> zl zs' (tinsert (map VInt zs) v t) = zl zs' t).
Proof.
  induction zs as [|c zs IH]; intros v t Hinv Hnone.
  - cbn [length map tinsert]. destruct Hinv as [->|[w ->]]; [|discriminate Hnone].
    split; [exists v; reflexivity|]. split; [reflexivity|]. intros zs' Hlen Hne. destruct zs'; [congruence|discriminate].
  - cbn [length map] in *. rewrite tinsert_cons. pose proof (wft_or_empty_tsub _ c t Hinv) as Hsub.
    apply wft_or_empty_S in Hinv as [l [-> [Hs Hc]]]. rewrite zl_tsub in Hnone. cbn [tchildren]. pose proof (proj1 Hs) as Hk.
    destruct (IH v _ Hsub Hnone) as [W [Same Other]]. split; [|split].
    + eexists. split; [reflexivity|]. split; [apply ainsert_sorted; exact Hs|]. split; [apply ainsert_nonempty|].
      apply ainsert_Forall; assumption.
    + rewrite zl_tsub, tsub_ainsert, Z.eqb_refl by exact Hk. exact Same.
    + intros [|d zs'] Hlen Hne; [discriminate|]. cbn [length] in Hlen. rewrite !zl_tsub, tsub_ainsert by exact Hk.
      destruct (Z.eqb_spec d c) as [->|_]; [apply Other; [lia|congruence]|reflexivity].
Qed.

Definition vpath (pv : list Z * value) : list value * value := (map VInt (fst pv), snd pv).

Lemma tbuild_snoc ps pv : tbuild (ps ++ [pv]) = tinsert (fst pv) (snd pv) (tbuild ps).
Proof. unfold tbuild. rewrite fold_left_app. reflexivity. Qed.

(* the induction takes the paths off the end: tbuild (ps ++ [pv]) is one tinsert into tbuild ps *)
Lemma tbuild_spec n : forall ps, NoDup (map fst ps) -> Forall (fun pv => length (fst pv) = n) ps ->
  (ps <> [] -> wft n (tbuild (map vpath ps))) /\
  (forall zs v, length zs = n -> (zl zs (tbuild (map vpath ps)) = Some v <-> In (zs, v) ps)).
Proof.
  induction ps as [|[p v] ps IH] using rev_ind; intros Hnd Hlen.
  - split; [congruence|]. intros zs v _. rewrite zl_empty. split; [discriminate|intros []].
  - rewrite map_app in Hnd. apply NoDup_app_iff in Hnd as [Hnd [_ Hnotin]]. apply Forall_app in Hlen as [Hlen Hp].
    apply Forall_inv in Hp. cbn [fst] in Hp. destruct (IH Hnd Hlen) as [IW IL].
    assert (Hnew : forall w, ~ In (p, w) ps) by (intros w Hw; apply (Hnotin p); [exact (in_map fst _ _ Hw)|left; reflexivity]).
    assert (Hinv : wft_or_empty n (tbuild (map vpath ps))) by (destruct ps; [left; reflexivity|right; apply IW; discriminate]).
    assert (Hp0 : zl p (tbuild (map vpath ps)) = None).
    { destruct (zl p _) as [w|] eqn:E; [|reflexivity]. apply IL in E; [|exact Hp]. destruct (Hnew w E). }
    rewrite map_app. cbn [map]. rewrite tbuild_snoc. cbn [vpath fst snd]. subst n. destruct (tinsert_spec p v _ Hinv Hp0) as [W [Same Other]].
    split; [intros _; exact W|]. intros zs w Hzs. rewrite in_app_iff. cbn [In]. destruct (list_eq_dec Z.eq_dec zs p) as [->|Hne].
    + rewrite Same. split; [intros [= <-]; right; left; reflexivity|]. intros [H|[[= <-]|[]]]; [destruct (Hnew w H)|reflexivity].
    + rewrite (Other zs Hzs Hne), (IL zs w Hzs). split; [tauto|]. intros [H|[[= E _]|[]]]; [exact H|congruence].
Qed.

Fixpoint zpaths (t : trie) : list (list Z * value) :=
  match t with
  | TLeaf v => [([], v)]
  | TNode l => flat_map (fun ct => map (fun pv => (kz ct :: fst pv, snd pv)) (zpaths (snd ct))) l
  end.

Lemma paths_zpaths : forall n t, wft n t -> paths t = map vpath (zpaths t).
Proof.
  refine (wft_ind _ _ _); [reflexivity|]. intros n l [Hk _] _ _ IH. rewrite Forall_forall in Hk, IH.
  cbn [paths zpaths]. rewrite !flat_map_concat_map, concat_map, map_map. f_equal. apply map_ext_in. intros ct Hct.
  rewrite (IH ct Hct), !map_map. destruct (int_key_inv ct (Hk ct Hct)) as [c [s ->]]. reflexivity.
Qed.

Lemma zpaths_length : forall n t, wft n t -> forall pv, In pv (zpaths t) -> length (fst pv) = n.
Proof.
  refine (wft_ind _ _ _); [intros v pv [<-|[]]; reflexivity|]. intros n l _ _ _ IH pv Hpv. rewrite Forall_forall in IH.
  apply in_flat_map in Hpv as [ct [Hct Hpv]]. apply in_map_iff in Hpv as [pv' [<- Hpv']].
  cbn [fst length]. rewrite (IH ct Hct pv' Hpv'). reflexivity.
Qed.

Lemma zpaths_lookup : forall n t, wft n t -> forall zs v, In (zs, v) (zpaths t) <-> zl zs t = Some v.
Proof.
  refine (wft_ind _ _ _).
  - intros w [|c zs] v; cbn; split; [intros [[= <-]|[]]; reflexivity|intros [= <-]; left; reflexivity|intros [[=]|[]]|discriminate].
  - intros n l Hs _ _ IH zs v. cbn [zpaths]. rewrite in_flat_map. rewrite Forall_forall in IH. split.
    + intros [ct [Hct Hpv]]. apply in_map_iff in Hpv as [[zs' v'] [[= <- <-] Hpv']].
      pose proof (proj1 Hs) as Hk. rewrite Forall_forall in Hk. destruct (int_key_inv ct (Hk ct Hct)) as [c [s ->]].
      rewrite kz_VInt, zl_cons, (In_alookup c s l Hs Hct). apply (IH _ Hct). exact Hpv'.
    + intros H. destruct zs as [|c zs]; [discriminate|]. rewrite zl_cons in H. destruct (alookup (VInt c) l) as [s|] eqn:E; [|discriminate].
      apply alookup_In in E; [|apply Hs]. exists (VInt c, s). split; [exact E|]. apply in_map_iff. exists (zs, v). split; [reflexivity|].
      apply (IH _ E). exact H.
Qed.

Lemma zpaths_nodup : forall n t, wft n t -> NoDup (map fst (zpaths t)).
Proof.
  refine (wft_ind _ _ _); [intros v; cbn; repeat constructor; intros []|]. intros n l Hs _ _ IH. cbn [zpaths].
  induction IH as [|ct l Hct _ IHl]; [constructor|].
  apply int_sorted_cons_inv in Hs. destruct Hs as [_ [Hs Hlt]]. cbn [flat_map]. rewrite map_app. apply NoDup_app_intro.
  - rewrite map_map. cbn [fst]. rewrite <- (map_map fst (cons (kz ct))). apply NoDup_map_inj_in; [|exact Hct].
    intros x y _ _ E. injection E as E. exact E.
  - apply IHl. exact Hs.
  - intros x Hx1 Hx2. apply in_map_iff in Hx1. destruct Hx1 as [pv1 [<- H1]]. apply in_map_iff in H1. destruct H1 as [pv1' [<- _]].
    apply in_map_iff in Hx2. destruct Hx2 as [pv2 [E H2]]. apply in_flat_map in H2. destruct H2 as [ct' [Hct' H2]].
    apply in_map_iff in H2. destruct H2 as [pv2' [<- _]]. cbn [fst] in E. injection E as E _. specialize (Hlt _ Hct'). lia.
Qed.

Lemma wft_inhabited : forall n t, wft n t -> exists zs v, length zs = n /\ zl zs t = Some v.
Proof.
  refine (wft_ind _ _ _); [intros v; exists [], v; split; reflexivity|]. intros n l Hs Hne _ IH.
  destruct l as [|ct l]; [congruence|]. apply Forall_inv in IH as [zs [v [Hlen Hz]]].
  apply int_sorted_cons_inv in Hs as [Hk _]. destruct (int_key_inv ct Hk) as [c [s ->]].
  exists (c :: zs), v. split; [cbn [length]; lia|]. rewrite zl_cons, alookup_int_cons, Z.eqb_refl. exact Hz.
Qed.

Lemma perm_range perm n : Permutation perm (seq 0 n) -> (forall i, In i perm <-> (i < n)%nat) /\ length perm = n.
Proof.
  intros HP. split.
  - intros i. split; intros H.
    + apply (Permutation_in _ HP) in H. apply in_seq in H. lia.
    + apply (Permutation_in _ (Permutation_sym HP)). apply in_seq. lia.
  - rewrite (Permutation_length HP). apply seq_length.
Qed.

Lemma nth_perm_length {A} perm (l : list A) d : length (nth_perm perm l d) = length perm.
Proof. apply map_length. Qed.

Lemma nth_perm_VInt perm zs : (forall i, In i perm -> (i < length zs)%nat) ->
  nth_perm perm (map VInt zs) VNone = map VInt (nth_perm perm zs 0).
Proof.
  intros H. unfold nth_perm. rewrite map_map. apply map_ext_in. intros i Hi.
  rewrite (nth_indep _ VNone (VInt 0)) by (rewrite map_length; apply H; exact Hi). apply map_nth.
Qed.

Lemma nth_perm_inj perm n (p q : list Z) : Permutation perm (seq 0 n) -> length p = n -> length q = n ->
  nth_perm perm p 0 = nth_perm perm q 0 -> p = q.
Proof.
  intros HP Hp Hq E. destruct (perm_range perm n HP) as [Hr _]. apply (nth_ext p q 0 0); [congruence|].
  intros i Hi. unfold nth_perm in E. assert (Hin : In i perm) by (apply Hr; lia). clear - E Hin.
  induction perm as [|j perm IH]; [destruct Hin|]. cbn [map] in E. injection E as E1 E2. destruct Hin as [<-|Hin]; [exact E1|apply IH; assumption].
Qed.

Definition zswz (perm : list nat) (t : trie) : list (list Z * value) :=
  map (fun pv => (nth_perm perm (fst pv) 0, snd pv)) (zpaths t).

Lemma tswizzle_eq perm n t : Permutation perm (seq 0 n) -> wft n t ->
  tswizzle perm t = tbuild (map vpath (zswz perm t)).
Proof.
  intros HP H. unfold tswizzle, zswz. rewrite (paths_zpaths n t H), !map_map. f_equal.
  apply map_ext_in. intros pv Hpv. unfold vpath. cbn [fst snd]. f_equal.
  apply nth_perm_VInt.
  intros i Hi. rewrite (zpaths_length n t H pv Hpv). apply (perm_range perm n HP). exact Hi.
Qed.

Lemma tswizzle_spec perm n t : Permutation perm (seq 0 n) -> wft n t ->
  wft n (tswizzle perm t) /\
  forall zs v, length zs = n -> (zl zs (tswizzle perm t) = Some v <-> In (zs, v) (zswz perm t)).
Proof.
  intros HP H. rewrite (tswizzle_eq perm n t HP H). destruct (perm_range perm n HP) as [_ Hplen].
  pose proof (zpaths_length n t H) as Hlen.
  destruct (tbuild_spec n (zswz perm t)) as [I2 I3].
  - unfold zswz. rewrite map_map. cbn [fst]. rewrite <- (map_map fst (fun zs => nth_perm perm zs 0)).
    apply NoDup_map_inj_in; [|apply (zpaths_nodup n); exact H].
    intros x y Hx Hy E. apply in_map_iff in Hx as [pvx [<- Hx]]. apply in_map_iff in Hy as [pvy [<- Hy]].
    apply (nth_perm_inj perm n); [exact HP|apply Hlen; exact Hx|apply Hlen; exact Hy|exact E].
  - unfold zswz. apply Forall_map, Forall_forall. intros pv _. cbn [fst]. rewrite nth_perm_length. exact Hplen.
  - split; [|exact I3]. apply I2. unfold zswz. destruct (wft_inhabited n t H) as [zs [v [_ Hz]]].
    apply (zpaths_lookup n t H) in Hz. destruct (zpaths t); [destruct Hz|discriminate].
Qed.

Lemma option_ext {A} (a b : option A) : (forall v, a = Some v <-> b = Some v) -> a = b.
Proof.
  intros H. destruct a as [x|]; destruct b as [y|]; try reflexivity.
  - symmetry. exact (proj1 (H x) eq_refl).
  - pose proof (proj1 (H x) eq_refl). discriminate.
  - exact (proj2 (H y) eq_refl).
Qed.

Lemma tswizzle_zl perm n t zs : Permutation perm (seq 0 n) -> wft n t -> length zs = n ->
  zl (nth_perm perm zs 0) (tswizzle perm t) = zl zs t.
Proof.
  intros HP H Hzs. destruct (perm_range perm n HP) as [_ Hplen]. apply option_ext. intros v.
  destruct (tswizzle_spec perm n t HP H) as [_ Hsp]. rewrite Hsp by (rewrite nth_perm_length; exact Hplen).
  rewrite <- (zpaths_lookup n t H). unfold zswz. rewrite in_map_iff. split.
  - intros [[zs' v'] [E Hin]]. cbn [fst snd] in E. injection E as E <-.
    rewrite <- (nth_perm_inj perm n zs' zs HP (zpaths_length n t H _ Hin) Hzs E). exact Hin.
  - intros Hin. exists (zs, v). split; [reflexivity|exact Hin].
Qed.

Theorem tswizzle_lookup perm n t zs : Permutation perm (seq 0 n) -> wft n t -> length zs = n ->
  tlookup (nth_perm perm (map VInt zs) VNone) (tswizzle perm t) = tlookup (map VInt zs) t.
Proof.
  intros HP H Hzs. rewrite nth_perm_VInt by (intros i Hi; rewrite Hzs; apply (perm_range perm n HP); exact Hi).
  exact (tswizzle_zl perm n t zs HP H Hzs).
Qed.

Theorem tswizzle_wft perm n t : Permutation perm (seq 0 n) -> wft n t -> wft n (tswizzle perm t).
Proof. intros HP H. apply (tswizzle_spec perm n t HP H). Qed.

Theorem wft_ext n : forall t1 t2, wft n t1 -> wft n t2 ->
  (forall zs, length zs = n -> zl zs t1 = zl zs t2) -> t1 = t2.
Proof.
  induction n as [|n IH]; intros t1 t2 H1 H2 E; cbn [wft] in H1, H2.
  - destruct H1 as [v1 ->]. destruct H2 as [v2 ->]. specialize (E [] eq_refl). cbn in E. congruence.
  - destruct H1 as [l1 [-> [Hs1 [_ Hc1]]]]. destruct H2 as [l2 [-> [Hs2 [_ Hc2]]]]. f_equal.
    (* two sorted fibers with the same elements are equal, and by symmetry it is enough that one's are the other's *)
    enough (G : forall la lb, int_sorted la -> int_sorted lb ->
                  Forall (fun ct => wft n (snd ct)) la -> Forall (fun ct => wft n (snd ct)) lb ->
                  (forall zs, length zs = S n -> zl zs (TNode la) = zl zs (TNode lb)) -> incl la lb).
    { apply (SS_In_ext (fun a b => kz a < kz b)); [lia|apply Hs1|apply Hs2|]. intros x. split; apply G; try assumption.
      intros zs Hzs. symmetry. exact (E zs Hzs). }
    clear - IH. intros la lb Ha Hb Hca Hcb E x Hx. rewrite Forall_forall in Hca, Hcb.
    pose proof (proj1 Ha) as Hk. rewrite Forall_forall in Hk. destruct (int_key_inv x (Hk x Hx)) as [c [s ->]].
    assert (Ec : forall zs, length zs = n -> zl zs s = zl (c :: zs) (TNode lb)).
    { intros zs Hzs. rewrite <- E by (cbn [length]; lia). rewrite zl_cons, (In_alookup c s la Ha Hx). reflexivity. }
    (* s holds something, so lb has a child at c as well; that child is s by induction *)
    destruct (wft_inhabited n s (Hca _ Hx)) as [zs [v [Hlen Hz]]]. rewrite (Ec zs Hlen), zl_cons in Hz.
    destruct (alookup (VInt c) lb) as [s'|] eqn:Eb; [|discriminate]. pose proof (alookup_In c s' lb (proj1 Hb) Eb) as Hin.
    rewrite (IH s s' (Hca _ Hx) (Hcb _ Hin)); [exact Hin|]. intros zs' Hzs'. rewrite (Ec zs' Hzs'), zl_cons, Eb. reflexivity.
Qed.

Lemma nth_perm_id {A} (p : list A) d : nth_perm (seq 0 (length p)) p d = p.
Proof.
  unfold nth_perm. induction p as [|a p IH]; [reflexivity|]. cbn [length seq map nth]. f_equal.
  rewrite <- seq_shift, map_map. exact IH.
Qed.

Theorem tswizzle_id n t : wft n t \/ t = TNode [] -> tswizzle (seq 0 n) t = t.
Proof.
  intros [H| ->]; [|reflexivity]. pose proof (Permutation_refl (seq 0 n)) as HP.
  apply (wft_ext n); [apply tswizzle_wft; assumption|exact H|]. intros zs Hzs.
  rewrite <- (nth_perm_id zs 0) at 1. rewrite Hzs. apply (tswizzle_zl _ n); assumption.
Qed.

Example ex_trie2_wft : wft 2 (TNode ex_trie2).
Proof.
  eexists. split; [reflexivity|]. split; [prove_int_sorted|]. split; [discriminate|].
  repeat constructor; cbn [snd]; (eexists; split; [reflexivity|]; split; [prove_int_sorted|]; split; [discriminate|]);
    repeat constructor; eexists; reflexivity.
Qed.

Example tswizzle_id_ex : tswizzle (seq 0 2) (TNode ex_trie2) = TNode ex_trie2.
Proof. apply tswizzle_id. left. exact ex_trie2_wft. Qed.

Theorem tswizzle_inverse perm perm' n t : Permutation perm (seq 0 n) -> Permutation perm' (seq 0 n) ->
  (forall zs : list Z, length zs = n -> nth_perm perm' (nth_perm perm zs 0) 0 = zs) ->
  wft n t -> tswizzle perm' (tswizzle perm t) = t.
Proof.
  intros HP HP' Hinv H. pose proof (tswizzle_wft perm n t HP H) as H1.
  apply (wft_ext n); [apply tswizzle_wft; assumption|exact H|]. intros zs Hzs.
  rewrite <- (Hinv zs Hzs) at 1. rewrite (tswizzle_zl perm' n), (tswizzle_zl perm n); try assumption; [reflexivity|].
  rewrite nth_perm_length. apply (perm_range perm n HP).
Qed.

Corollary tswizzle_transpose_involution t : wft 2 t -> tswizzle [1; 0]%nat (tswizzle [1; 0]%nat t) = t.
Proof.
  apply (tswizzle_inverse [1; 0]%nat [1; 0]%nat 2).
  - apply perm_swap.
  - apply perm_swap.
  - intros zs Hzs. destruct zs as [|a [|b [|c zs]]]; try discriminate. reflexivity.
Qed.

Example tswizzle_transpose_ex :
  tswizzle [1; 0]%nat (TNode ex_trie2) =
    TNode [(VInt 0, TNode [(VInt 2, ex_leaf 3); (VInt 3, ex_leaf 4)]); (VInt 1, TNode [(VInt 0, ex_leaf 1)]);
           (VInt 5, TNode [(VInt 0, ex_leaf 2); (VInt 3, ex_leaf 5)])] /\
  tswizzle [1; 0]%nat (tswizzle [1; 0]%nat (TNode ex_trie2)) = TNode ex_trie2 /\
  tlookup (nth_perm [1; 0]%nat (map VInt [3; 5]) VNone) (tswizzle [1; 0]%nat (TNode ex_trie2)) = tlookup (map VInt [3; 5]) (TNode ex_trie2).
Proof.
  split; [vm_compute; reflexivity|]. split; [apply tswizzle_transpose_involution; exact ex_trie2_wft|].
  apply (tswizzle_lookup [1; 0]%nat 2); [apply perm_swap|exact ex_trie2_wft|reflexivity].
Qed.

(* a three-rank rotation and its inverse *)
Definition ex_trie3 : trie :=
  TNode [(VInt 1, TNode ex_trie2); (VInt 4, TNode [(VInt 2, TNode [(VInt 0, ex_leaf 7); (VInt 9, ex_leaf 8)])])].

Example ex_trie3_wft : wft 3 ex_trie3.
Proof.
  eexists. split; [reflexivity|]. split; [prove_int_sorted|]. split; [discriminate|].
  constructor; [exact ex_trie2_wft|]. constructor; [|constructor]. cbn [snd].
  eexists. split; [reflexivity|]. split; [prove_int_sorted|]. split; [discriminate|].
  repeat constructor; cbn [snd]; (eexists; split; [reflexivity|]; split; [prove_int_sorted|]; split; [discriminate|]);
    repeat constructor; eexists; reflexivity.
Qed.

Example tswizzle_rotation_ex : tswizzle [2; 0; 1]%nat (tswizzle [1; 2; 0]%nat ex_trie3) = ex_trie3.
Proof.
  apply (tswizzle_inverse [1; 2; 0]%nat [2; 0; 1]%nat 3).
  - apply perm_trans with [1; 0; 2]%nat; [apply perm_skip; apply perm_swap|apply perm_swap].
  - apply perm_trans with [0; 2; 1]%nat; [apply perm_swap|apply perm_skip; apply perm_swap].
  - intros zs Hzs. destruct zs as [|a [|b [|c [|d zs]]]]; try discriminate. reflexivity.
  - exact ex_trie3_wft.
Qed.

(* the interpreter applies every operation through tmap_depth d (to each fiber at depth d of a tensor):
   a round-trip law of one fiber lifts to the whole trie *)
Fixpoint at_depth (d : nat) (P : trie -> Prop) (t : trie) : Prop :=
  match d with
  | O => P t
  | S d' => exists l, t = TNode l /\ Forall (fun ct => at_depth d' P (snd ct)) l
  end.

(* the loop of tmap_depth over the children of a node *)
Definition tmap_go (F : trie -> option trie) : list (value * trie) -> option (list (value * trie)) :=
  fix go l := match l with
              | [] => Some []
              | (c, s) :: l' => match F s, go l' with Some s', Some r => Some ((c, s') :: r) | _, _ => None end
              end.

Lemma tmap_depth_S d f l : tmap_depth (S d) f (TNode l) = option_map TNode (tmap_go (tmap_depth d f) l).
Proof. reflexivity. Qed.

Lemma tmap_go_roundtrip F G l :
  Forall (fun ct => exists s', F (snd ct) = Some s' /\ G s' = Some (snd ct)) l ->
  exists l', tmap_go F l = Some l' /\ tmap_go G l' = Some l.
Proof.
  induction 1 as [|[c s] l [s' [E1 E2]] _ [l' [IH1 IH2]]]; [exists []; split; reflexivity|].
  exists ((c, s') :: l'). cbn [tmap_go snd] in *. rewrite E1, IH1, E2, IH2. split; reflexivity.
Qed.

Theorem tmap_depth_roundtrip (f g : trie -> option trie) (P : trie -> Prop) :
  (forall t, P t -> exists t', f t = Some t' /\ g t' = Some t) ->
  forall d t, at_depth d P t -> exists t', tmap_depth d f t = Some t' /\ tmap_depth d g t' = Some t.
Proof.
  intros Hfg. induction d as [|d IH]; intros t H; cbn [at_depth] in H; [apply Hfg; exact H|].
  destruct H as [l [-> Hc]]. destruct (tmap_go_roundtrip (tmap_depth d f) (tmap_depth d g) l) as [l' [E1 E2]].
  { revert Hc. apply Forall_impl. intros ct. apply IH. }
  exists (TNode l'). rewrite !tmap_depth_S, E1, E2. split; reflexivity.
Qed.

Definition fiber_ok (P : list (value * trie) -> Prop) (t : trie) : Prop := exists l, t = TNode l /\ P l.

Theorem split_uniform_merge1_depth d step t : 0 < step ->
  at_depth d (fiber_ok (fun l => int_sorted l /\ nonneg_keys l)) t ->
  exists t', tmap_depth d (split_uniform step 0 0) t = Some t' /\ tmap_depth d merge1 t' = Some t.
Proof.
  intros Hs. apply tmap_depth_roundtrip. intros t0 [l [-> [H1 H2]]]. apply split_uniform_merge1; assumption.
Qed.

Theorem split_equal_merge1_depth d n t : 0 < n -> at_depth d (fiber_ok int_sorted) t ->
  exists t', tmap_depth d (split_equal n) t = Some t' /\ tmap_depth d merge1 t' = Some t.
Proof.
  intros Hn. apply tmap_depth_roundtrip. intros t0 [l [-> H1]]. apply split_equal_merge1; assumption.
Qed.

Theorem split_nonuniform_merge1_depth d zs t : StronglySorted Z.lt zs ->
  at_depth d (fiber_ok (fun l => int_sorted l /\ match zs with b0 :: _ => forall ct, In ct l -> b0 <= kz ct | [] => l = [] end)) t ->
  exists t', tmap_depth d (split_nonuniform (map VInt zs)) t = Some t' /\ tmap_depth d merge1 t' = Some t.
Proof.
  intros Hzs. apply tmap_depth_roundtrip. intros t0 [l [-> [H1 H2]]]. apply split_nonuniform_merge1; assumption.
Qed.

Theorem flatten1_unflatten1_depth d t : at_depth d (fiber_ok wf2) t ->
  exists t', tmap_depth d flatten1 t = Some t' /\ tmap_depth d unflatten1 t' = Some t.
Proof. apply tmap_depth_roundtrip. intros t0 [l [-> H1]]. apply flatten1_unflatten1; assumption. Qed.

Example split_uniform_merge1_depth_ex :
  exists t', tmap_depth 1 (split_uniform 3 0 0) (TNode [(VInt 2, TNode ex_fiber); (VInt 5, TNode [(VInt 8, ex_leaf 1)])]) = Some t' /\
             tmap_depth 1 merge1 t' = Some (TNode [(VInt 2, TNode ex_fiber); (VInt 5, TNode [(VInt 8, ex_leaf 1)])]).
Proof.
  apply split_uniform_merge1_depth; [lia|]. eexists. split; [reflexivity|].
  constructor; [exists ex_fiber; split; [reflexivity|split; [exact ex_fiber_sorted|exact ex_fiber_nonneg]]|].
  constructor; [|constructor]. eexists. split; [reflexivity|]. split; [prove_int_sorted|repeat constructor; cbn; lia].
Qed.
