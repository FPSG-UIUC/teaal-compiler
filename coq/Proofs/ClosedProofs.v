(* C06: the definite-assignment analysis `da` of Model/Closed.v is sound (`da_sound`) and
   complete (`da_complete`) for the path semantics `sem` (only WHICH names are bound is
   tracked, every control path is possible: a loop runs zero or more times, an `if` takes
   either branch). *)
From Coq Require Import List Bool PArith.
Require Import TV.Model.Py TV.Model.Closed TV.Proofs.PyInd.
Import ListNotations.

Lemma da_inner_block_eq : forall ss B,
  (fix go (B : PS.t) (ss : list stmt) {struct ss} : option PS.t :=
     match ss with
     | [] => Some B
     | s :: ss' => match da B s with Some B' => go B' ss' | None => None end
     end) B ss = da_block B ss.
Proof.
  induction ss as [|s ss IH]; intros B; simpl.
  - reflexivity.
  - destruct (da B s) as [B'|]; [apply IH|reflexivity].
Qed.

Lemma da_for_eq : forall B p e body,
  da B (SFor p e body) =
  if expr_ok B e
  then match da_block (add_all (pat_vars p) B) body with Some _ => Some B | None => None end
  else None.
Proof.
  intros B p e body. simpl. rewrite da_inner_block_eq. reflexivity.
Qed.

Lemma da_if_eq : forall B c a b,
  da B (SIf c a b) =
  if expr_ok B c
  then match da_block B a, da_block B b with
       | Some Da, Some Db => Some (PS.inter Da Db)
       | _, _ => None
       end
  else None.
Proof.
  intros B c a b. simpl. rewrite !da_inner_block_eq. reflexivity.
Qed.

(* One relation for the two uses: monotonicity (X = Y) and the join of the two branches
   of an `if` (Z = X /\ Y). *)
Definition sub3 (X Y Z : PS.t) : Prop := forall a, PS.In a X -> PS.In a Y -> PS.In a Z.

Lemma sub3_of_subset : forall X Z, PS.Subset X Z -> sub3 X X Z.
Proof. intros X Z H a Ha _. apply H, Ha. Qed.

Lemma subset_of_sub3 : forall X Z, sub3 X X Z -> PS.Subset X Z.
Proof. intros X Z H a Ha. exact (H a Ha Ha). Qed.

Lemma sub3_inter : forall X Y, sub3 X Y (PS.inter X Y).
Proof. intros X Y a Ha Hb. apply PS.inter_spec. split; assumption. Qed.

Lemma sub3_add : forall x X Y Z, sub3 X Y Z -> sub3 (PS.add x X) (PS.add x Y) (PS.add x Z).
Proof.
  intros x X Y Z H a Ha Hb. apply PS.add_spec.
  apply PS.add_spec in Ha. apply PS.add_spec in Hb.
  destruct Ha as [Ha|Ha]; [left; exact Ha|].
  destruct Hb as [Hb|Hb]; [left; exact Hb|].
  right. apply H; assumption.
Qed.

Lemma sub3_add_all : forall xs X Y Z, sub3 X Y Z -> sub3 (add_all xs X) (add_all xs Y) (add_all xs Z).
Proof.
  induction xs as [|x xs IH]; intros X Y Z H; simpl.
  - exact H.
  - apply sub3_add, IH, H.
Qed.

Lemma sub3_mem : forall X Y Z x, sub3 X Y Z -> PS.mem x X = true -> PS.mem x Y = true -> PS.mem x Z = true.
Proof.
  intros X Y Z x H Hx Hy. apply PS.mem_1. apply H; apply PS.mem_2; assumption.
Qed.

Lemma subset_add : forall x B B1, PS.Subset B B1 -> PS.Subset (PS.add x B) (PS.add x B1).
Proof. intros x B B1 H. apply subset_of_sub3, sub3_add, sub3_of_subset, H. Qed.

Lemma subset_add_all : forall xs B B1, PS.Subset B B1 -> PS.Subset (add_all xs B) (add_all xs B1).
Proof. intros xs B B1 H. apply subset_of_sub3, sub3_add_all, sub3_of_subset, H. Qed.

Lemma subset_add_r : forall x B, PS.Subset B (PS.add x B).
Proof. intros x B a Ha. apply PS.add_spec. right. exact Ha. Qed.

Lemma subset_add_all_r : forall xs B, PS.Subset B (add_all xs B).
Proof.
  induction xs as [|x xs IH]; intros B a Ha; simpl.
  - exact Ha.
  - apply PS.add_spec. right. apply IH, Ha.
Qed.

Lemma subset_refl : forall B, PS.Subset B B.
Proof. intros B a Ha. exact Ha. Qed.

Lemma subset_trans : forall A B C, PS.Subset A B -> PS.Subset B C -> PS.Subset A C.
Proof. intros A B C H1 H2 a Ha. apply H2, H1, Ha. Qed.

(* the anonymous list functions of expr_ok are forallb *)
Lemma expr_ok_call_eq : forall B f args kw,
  expr_ok B (ECall f args kw) =
  expr_ok B f && forallb (expr_ok B) args && forallb (fun p => expr_ok B (snd p)) kw.
Proof.
  intros. simpl. f_equal. induction kw as [|[k e] kw IH]; simpl; [reflexivity|]. rewrite IH. reflexivity.
Qed.

Lemma expr_ok_dict_eq : forall B l,
  expr_ok B (EDict l) = forallb (fun p => expr_ok B (fst p) && expr_ok B (snd p)) l.
Proof.
  intros. simpl. induction l as [|[k v] l IH]; simpl; [reflexivity|]. rewrite IH. reflexivity.
Qed.

Definition closed3 (f : PS.t -> bool) : Prop :=
  forall X Y Z, sub3 X Y Z -> f X = true -> f Y = true -> f Z = true.

Lemma closed3_and : forall f g, closed3 f -> closed3 g -> closed3 (fun X => f X && g X).
Proof.
  intros f g Hf Hg X Y Z HS HX HY. apply andb_true_iff in HX. apply andb_true_iff in HY.
  destruct HX as [HX1 HX2]. destruct HY as [HY1 HY2].
  apply andb_true_iff. split; [eapply Hf|eapply Hg]; eassumption.
Qed.

Lemma closed3_forallb : forall (A : Type) (f : PS.t -> A -> bool) (l : list A),
  Forall (fun a => closed3 (fun X => f X a)) l -> closed3 (fun X => forallb (f X) l).
Proof.
  intros A f l HF. induction HF as [|a l Ha _ IH]; [intros X Y Z _ _ _; reflexivity|].
  exact (closed3_and _ _ Ha IH).
Qed.

Lemma expr_ok_sub3 : forall e, closed3 (fun X => expr_ok X e).
Proof.
  induction e as
    [x|z|s|b| |op a b IHa IHb|a IHa|op a b IHa IHb|f args kw IHf IHargs IHkw|a s IHa
    |a i IHa IHi|l IHl|l IHl|l IHl|ps body IHbody|elem x it IHelem IHit] using expr_ind';
    try (intros X Y Z _ _ _; reflexivity).
  - intros X Y Z HS. apply sub3_mem, HS.
  - exact (closed3_and _ _ IHa IHb).
  - exact IHa.
  - exact (closed3_and _ _ IHa IHb).
  - intros X Y Z. rewrite !expr_ok_call_eq.
    apply (closed3_and _ _ (closed3_and _ _ IHf (closed3_forallb _ _ _ IHargs))
                           (closed3_forallb _ (fun X p => expr_ok X (snd p)) _ IHkw)).
  - exact IHa.
  - exact (closed3_and _ _ IHa IHi).
  - exact (closed3_forallb _ _ _ IHl).
  - exact (closed3_forallb _ _ _ IHl).
  - intros X Y Z. rewrite !expr_ok_dict_eq.
    apply (closed3_forallb _ (fun X p => expr_ok X (fst p) && expr_ok X (snd p))).
    eapply Forall_impl; [|exact IHl]. intros [k v] [Hk Hv]. exact (closed3_and _ _ Hk Hv).
  - intros X Y Z HS. apply IHbody, (sub3_add_all ps), HS.
  - refine (closed3_and (fun X => expr_ok X it) _ IHit _).
    intros X Y Z HS. apply IHelem, sub3_add, HS.
Qed.

Lemma expr_ok_mono : forall e B B1, PS.Subset B B1 -> expr_ok B e = true -> expr_ok B1 e = true.
Proof. intros e B B1 HS H. exact (expr_ok_sub3 e _ _ _ (sub3_of_subset _ _ HS) H H). Qed.

Lemma target_ok_sub3 : forall t, closed3 (fun X => target_ok X t).
Proof.
  intros [x|a i]; [intros X Y Z _ _ _; reflexivity|]. exact (closed3_and _ _ (expr_ok_sub3 a) (expr_ok_sub3 i)).
Qed.

(* the statements without blocks: on them `sem` is the function `da` (`sem_simple`) *)
Definition simple (s : stmt) : Prop := match s with SFor _ _ _ | SIf _ _ _ => False | _ => True end.

Definition out (r : option PS.t) : outcome := match r with Some D => Fine D | None => Unbound end.

Definition aug_bound (B : PS.t) (t : target) : bool :=
  match t with TName x => PS.mem x B | TSub _ _ => true end.

Definition guard (B : PS.t) (s : stmt) : bool :=
  match s with
  | SAssign t e => expr_ok B e && target_ok B t
  | SAug _ t e => expr_ok B e && target_ok B t && aug_bound B t
  | SExpr e => expr_ok B e
  | _ => true
  end.

Definition result (B : PS.t) (s : stmt) : PS.t :=
  match s with SAssign (TName x) _ => PS.add x B | _ => B end.

Lemma da_simple : forall B s, simple s -> da B s = if guard B s then Some (result B s) else None.
Proof. intros B [t e|op t e|e|p e body|c a b] Hs; try destruct Hs; reflexivity. Qed.

Lemma guard_sub3 : forall s, closed3 (fun X => guard X s).
Proof.
  intros [t e|op t e|e|p e body|c a b]; simpl; try (intros X Y Z _ _ _; reflexivity).
  - exact (closed3_and _ _ (expr_ok_sub3 e) (target_ok_sub3 t)).
  - refine (closed3_and _ _ (closed3_and _ _ (expr_ok_sub3 e) (target_ok_sub3 t)) _).
    destruct t as [x|a i]; intros X Y Z HS; simpl; [apply sub3_mem, HS|reflexivity].
  - exact (expr_ok_sub3 e).
Qed.

Lemma result_sub3 : forall s X Y Z, sub3 X Y Z -> sub3 (result X s) (result Y s) (result Z s).
Proof. intros [[x|a i] e|op t e|e|p e body|c a b] X Y Z HS; simpl; try exact HS. apply sub3_add, HS. Qed.

Lemma result_ext : forall s B, PS.Subset B (result B s).
Proof. intros [[x|a i] e|op t e|e|p e body|c a b] B; simpl; try apply subset_refl. apply subset_add_r. Qed.

Lemma sem_simple : forall B s o, simple s -> (sem B s o <-> o = out (da B s)).
Proof.
  intros B s o Hs. split.
  - intros H.
    inversion H as [? ? ? E|? ? ? ? E E2|? ? ? E|? ? ? ? E|? ? ? ? E|? ? E|? ? E| | | | | ]; subst; try destruct Hs;
      simpl in *; rewrite E, ?E2; reflexivity.
  - intros ->. destruct s as [t e|op t e|e|p e body|c a b]; try destruct Hs; simpl.
    + destruct (expr_ok B e && target_ok B t) eqn:E; [|apply sem_assign_unb, E].
      apply andb_true_iff in E. destruct E as [E1 E2].
      destruct t; [apply sem_assign_name|apply sem_assign_sub]; assumption.
    + fold (aug_bound B t). destruct (expr_ok B e && target_ok B t && aug_bound B t) eqn:E; [apply sem_aug_ok|apply sem_aug_unb]; exact E.
    + destruct (expr_ok B e) eqn:E; [apply sem_expr_ok|apply sem_expr_unb]; exact E.
Qed.

Lemma da_simple_sub3 : forall s X Y Z X' Y', simple s -> sub3 X Y Z ->
  da X s = Some X' -> da Y s = Some Y' -> exists Z', da Z s = Some Z' /\ sub3 X' Y' Z'.
Proof.
  intros s X Y Z X' Y' Hs HS. rewrite !(da_simple _ _ Hs).
  destruct (guard X s) eqn:GX; [|discriminate]. destruct (guard Y s) eqn:GY; [|discriminate].
  rewrite (guard_sub3 s _ _ _ HS GX GY). intros HX HY. injection HX as <-. injection HY as <-.
  eexists. split; [reflexivity|apply result_sub3, HS].
Qed.

Lemma da_simple_ext : forall s B D, simple s -> da B s = Some D -> PS.Subset B D.
Proof.
  intros s B D Hs. rewrite (da_simple _ _ Hs). destruct (guard B s); [|discriminate].
  intros H. injection H as <-. apply result_ext.
Qed.

Lemma da_ext_all :
  (forall s B D, da B s = Some D -> PS.Subset B D) /\ (forall ss B D, da_block B ss = Some D -> PS.Subset B D).
Proof.
  apply stmt_block_ind; try (intros; eapply da_simple_ext; [|eassumption]; exact I).
  - intros p e body _ B D HD. rewrite da_for_eq in HD. destruct (expr_ok B e); [|discriminate].
    destruct (da_block (add_all (pat_vars p) B) body); [|discriminate].
    injection HD as <-. apply subset_refl.
  - intros c a b IHa IHb B D HD. rewrite da_if_eq in HD. destruct (expr_ok B c); [|discriminate].
    destruct (da_block B a) as [Da|] eqn:Ea; [|discriminate].
    destruct (da_block B b) as [Db|] eqn:Eb; [|discriminate].
    injection HD as <-. intros x Hx. apply PS.inter_spec. split; [exact (IHa _ _ Ea x Hx)|exact (IHb _ _ Eb x Hx)].
  - intros B D HD. injection HD as <-. apply subset_refl.
  - intros s ss Hs Hss B D HD. simpl in HD. destruct (da B s) as [B'|] eqn:E; [|discriminate].
    exact (subset_trans _ _ _ (Hs _ _ E) (Hss _ _ HD)).
Qed.

Lemma da_block_ext : forall ss B D, da_block B ss = Some D -> PS.Subset B D.
Proof. exact (proj2 da_ext_all). Qed.

Lemma sem_for_inv : forall B p e body o, sem B (SFor p e body) o ->
  (expr_ok B e = false /\ o = Unbound) \/ (expr_ok B e = true /\ sem_loop B p body o).
Proof. intros B p e body o H. inversion H; subst; auto. Qed.

Lemma sem_if_inv : forall B c a b o, sem B (SIf c a b) o ->
  (expr_ok B c = false /\ o = Unbound) \/ (expr_ok B c = true /\ (sem_block B a o \/ sem_block B b o)).
Proof. intros B c a b o H. inversion H; subst; auto. Qed.

Definition good (D : PS.t) (o : outcome) : Prop :=
  match o with Unbound => False | Fine B' => PS.Subset D B' end.

Lemma good_weaken : forall D D' o, PS.Subset D' D -> good D o -> good D' o.
Proof. intros D D' [B'|] H G; [exact (subset_trans _ _ _ H G)|exact G]. Qed.

Lemma good_split : forall (P : outcome -> Prop) D, (forall o, P o -> good D o) ->
  ~ P Unbound /\ (forall B', P (Fine B') -> PS.Subset D B').
Proof. intros P D H. split; [exact (H Unbound)|intros B'; exact (H (Fine B'))]. Qed.

(* soundness from every superset B1 of B: a path leaves a prefix of a block with more names
   bound than the analysis counts on *)
Definition sound_stmt (s : stmt) : Prop :=
  forall B D, da B s = Some D -> forall B1 o, PS.Subset B B1 -> sem B1 s o -> good D o.

Definition sound_block (ss : list stmt) : Prop :=
  forall B D, da_block B ss = Some D -> forall B1 o, PS.Subset B B1 -> sem_block B1 ss o -> good D o.

Lemma sound_simple : forall s, simple s -> sound_stmt s.
Proof.
  intros s Hs B D HD B1 o HS H. apply (sem_simple _ _ _ Hs) in H. subst o.
  destruct (da_simple_sub3 s B B B1 D D Hs (sub3_of_subset _ _ HS) HD HD) as [D1 [-> H1]].
  apply subset_of_sub3, H1.
Qed.

Lemma sound_loop : forall B p body D0, sound_block body -> da_block (add_all (pat_vars p) B) body = Some D0 ->
  forall B1 o, sem_loop B1 p body o -> PS.Subset B B1 -> good B o.
Proof.
  intros B p body D0 Hbody HD B1 o Hl.
  induction Hl as [B1 p body|B1 p body B2 o Hb Hl IH|B1 p body Hb]; intros HS.
  - exact HS.
  - apply (IH Hbody HD).
    eapply subset_trans; [apply (subset_add_all_r (pat_vars p))|].
    eapply subset_trans; [exact (da_block_ext _ _ _ HD)|].
    exact (Hbody _ _ HD _ _ (subset_add_all _ _ _ HS) Hb).
  - exact (Hbody _ _ HD _ _ (subset_add_all _ _ _ HS) Hb).
Qed.

Lemma sound_all : (forall s, sound_stmt s) /\ (forall ss, sound_block ss).
Proof.
  apply stmt_block_ind; try (intros; apply sound_simple; exact I).
  - intros p e body Hbody B D HD B1 o HS H. rewrite da_for_eq in HD.
    destruct (expr_ok B e) eqn:E; [|discriminate].
    destruct (da_block (add_all (pat_vars p) B) body) as [D0|] eqn:E0; [|discriminate]. injection HD as <-.
    apply sem_for_inv in H. destruct H as [[E1 _]|[_ Hl]].
    + rewrite (expr_ok_mono _ _ _ HS E) in E1. discriminate E1.
    + exact (sound_loop _ _ _ _ Hbody E0 _ _ Hl HS).
  - intros c a b Ha Hb B D HD B1 o HS H. rewrite da_if_eq in HD.
    destruct (expr_ok B c) eqn:E; [|discriminate].
    destruct (da_block B a) as [Da|] eqn:Ea; [|discriminate].
    destruct (da_block B b) as [Db|] eqn:Eb; [|discriminate]. injection HD as <-.
    apply sem_if_inv in H. destruct H as [[E1 _]|[_ [H|H]]].
    + rewrite (expr_ok_mono _ _ _ HS E) in E1. discriminate E1.
    + apply (good_weaken Da); [intros x Hx; apply PS.inter_spec in Hx; apply Hx|exact (Ha _ _ Ea _ _ HS H)].
    + apply (good_weaken Db); [intros x Hx; apply PS.inter_spec in Hx; apply Hx|exact (Hb _ _ Eb _ _ HS H)].
  - intros B D HD B1 o HS H. injection HD as <-. inversion H; subst. exact HS.
  - intros s ss Hs Hss B D HD B1 o HS H. simpl in HD. destruct (da B s) as [D1|] eqn:E; [|discriminate].
    inversion H as [|? ? ? B2 ? Hs1 Hss1|? ? ? Hs1]; subst.
    + exact (Hss _ _ HD _ _ (Hs _ _ E _ _ HS Hs1) Hss1).
    + exact (Hs _ _ E _ _ HS Hs1).
Qed.

Theorem da_sound : forall s B D, da B s = Some D ->
  ~ sem B s Unbound /\ (forall B', sem B s (Fine B') -> PS.Subset D B').
Proof. intros s B D HD. apply good_split. intros o. exact (proj1 sound_all s _ _ HD _ _ (subset_refl _)). Qed.

Theorem da_block_sound : forall ss B D, da_block B ss = Some D ->
  ~ sem_block B ss Unbound /\ (forall B', sem_block B ss (Fine B') -> PS.Subset D B').
Proof. intros ss B D HD. apply good_split. intros o. exact (proj2 sound_all ss _ _ HD _ _ (subset_refl _)). Qed.

Theorem da_loop_sound : forall B p body D0, da_block (add_all (pat_vars p) B) body = Some D0 ->
  forall B1, PS.Subset B B1 ->
  ~ sem_loop B1 p body Unbound /\ (forall B', sem_loop B1 p body (Fine B') -> PS.Subset B B').
Proof.
  intros B p body D0 HD B1 HS. apply good_split. intros o Hl.
  exact (sound_loop _ _ _ _ (proj2 sound_all body) HD _ _ Hl HS).
Qed.

(* The path semantics splits over intersections: a path from Z (with X /\ Y inside Z)
   can be followed from X and from Y; either one of them reads an unbound name on the
   way, or both arrive, and then the intersection of the arrival sets is inside the
   arrival set of the original path. *)
Definition split_out (semX semY : outcome -> Prop) (o : outcome) : Prop :=
  match o with
  | Unbound => semX Unbound \/ semY Unbound
  | Fine Z' => semX Unbound \/ semY Unbound \/
               exists X' Y', semX (Fine X') /\ semY (Fine Y') /\ sub3 X' Y' Z'
  end.

Lemma split_out_l : forall (semX semY : outcome -> Prop) o, semX Unbound -> split_out semX semY o.
Proof. intros semX semY [Z'|] H; simpl; left; exact H. Qed.

Lemma split_out_r : forall (semX semY : outcome -> Prop) o, semY Unbound -> split_out semX semY o.
Proof. intros semX semY [Z'|] H; simpl; [right; left|right]; exact H. Qed.

Lemma split_out_map : forall (semX semY semX' semY' : outcome -> Prop) o,
  (forall o', semX o' -> semX' o') -> (forall o', semY o' -> semY' o') ->
  split_out semX semY o -> split_out semX' semY' o.
Proof.
  intros semX semY semX' semY' [Z'|] HX HY H; simpl in *.
  - destruct H as [H|[H|[X' [Y' [H1 [H2 H3]]]]]].
    + left. apply HX, H.
    + right. left. apply HY, H.
    + right. right. exists X', Y'. split; [apply HX, H1|]. split; [apply HY, H2|exact H3].
  - destruct H as [H|H]; [left; apply HX, H|right; apply HY, H].
Qed.

Lemma split_out_fine : forall (semX semY : outcome -> Prop) X' Y' Z',
  semX (Fine X') -> semY (Fine Y') -> sub3 X' Y' Z' -> split_out semX semY (Fine Z').
Proof. intros. simpl. right. right. exists X', Y'. split; [assumption|]. split; assumption. Qed.

Lemma split_out_seq : forall (semX semY semX' semY' : outcome -> Prop) Z' o,
  split_out semX semY (Fine Z') ->
  (semX Unbound -> semX' Unbound) -> (semY Unbound -> semY' Unbound) ->
  (forall X' Y', semX (Fine X') -> semY (Fine Y') -> sub3 X' Y' Z' -> split_out semX' semY' o) ->
  split_out semX' semY' o.
Proof.
  intros semX semY semX' semY' Z' o [H|[H|[X' [Y' [H1 [H2 H3]]]]]] HX HY Hr.
  - apply split_out_l, HX, H.
  - apply split_out_r, HY, H.
  - exact (Hr _ _ H1 H2 H3).
Qed.

Lemma split_guard : forall (semX semY : outcome -> Prop) (gX gY : bool) o,
  (gX = false -> semX Unbound) -> (gY = false -> semY Unbound) ->
  (gX = true -> gY = true -> split_out semX semY o) -> split_out semX semY o.
Proof.
  intros semX semY [|] [|] o HX HY H; [exact (H eq_refl eq_refl)|apply split_out_r, HY|apply split_out_l, HX ..]; reflexivity.
Qed.

Definition split_stmt (s : stmt) : Prop :=
  forall Z o, sem Z s o -> forall X Y, sub3 X Y Z -> split_out (sem X s) (sem Y s) o.

Definition split_block (ss : list stmt) : Prop :=
  forall Z o, sem_block Z ss o -> forall X Y, sub3 X Y Z -> split_out (sem_block X ss) (sem_block Y ss) o.

Lemma split_simple : forall s, simple s -> split_stmt s.
Proof.
  intros s Hs Z o H X Y HS. apply (sem_simple _ _ _ Hs) in H. subst o.
  pose proof (proj2 (sem_simple X s _ Hs) eq_refl) as HX. pose proof (proj2 (sem_simple Y s _ Hs) eq_refl) as HY.
  destruct (da X s) as [X'|] eqn:EX; [|apply split_out_l, HX].
  destruct (da Y s) as [Y'|] eqn:EY; [|apply split_out_r, HY].
  destruct (da_simple_sub3 s X Y Z X' Y' Hs HS EX EY) as [Z' [-> H3]].
  exact (split_out_fine _ _ _ _ _ HX HY H3).
Qed.

Lemma split_loop : forall p body, split_block body ->
  forall Z o, sem_loop Z p body o -> forall X Y, sub3 X Y Z -> split_out (sem_loop X p body) (sem_loop Y p body) o.
Proof.
  intros p body Hbody Z o Hl.
  induction Hl as [Z p body|Z p body Z1 o Hb Hl IH|Z p body Hb]; intros X Y HS.
  - exact (split_out_fine _ _ _ _ _ (loop_done _ _ _) (loop_done _ _ _) HS).
  - apply (split_out_seq _ _ _ _ _ _ (Hbody _ _ Hb _ _ (sub3_add_all (pat_vars p) _ _ _ HS)));
      try apply loop_unb.
    intros X' Y' H1 H2 H3. eapply split_out_map; [| |exact (IH Hbody _ _ H3)]; intros o' Ho'; eapply loop_iter; eassumption.
  - destruct (Hbody _ _ Hb _ _ (sub3_add_all (pat_vars p) _ _ _ HS)) as [H|H]; [left|right]; apply loop_unb, H.
Qed.

Lemma sem_split : (forall s, split_stmt s) /\ (forall ss, split_block ss).
Proof.
  apply stmt_block_ind; try (intros; apply split_simple; exact I).
  - intros p e body Hbody Z o H X Y HS.
    apply (split_guard _ _ (expr_ok X e) (expr_ok Y e)); try apply sem_for_unb_iter. intros EX EY.
    apply sem_for_inv in H. destruct H as [[E _]|[_ Hl]].
    + rewrite (expr_ok_sub3 e _ _ _ HS EX EY) in E. discriminate E.
    + eapply split_out_map; [| |exact (split_loop _ _ Hbody _ _ Hl _ _ HS)]; intros o' Ho'; apply sem_for_iters; assumption.
  - intros c a b Ha Hb Z o H X Y HS.
    apply (split_guard _ _ (expr_ok X c) (expr_ok Y c)); try apply sem_if_unb. intros EX EY.
    apply sem_if_inv in H. destruct H as [[E _]|[_ [H|H]]].
    + rewrite (expr_ok_sub3 c _ _ _ HS EX EY) in E. discriminate E.
    + eapply split_out_map; [| |exact (Ha _ _ H _ _ HS)]; intros o' Ho'; apply sem_if_then; assumption.
    + eapply split_out_map; [| |exact (Hb _ _ H _ _ HS)]; intros o' Ho'; apply sem_if_else; assumption.
  - intros Z o H X Y HS. inversion H; subst.
    exact (split_out_fine _ _ _ _ _ (block_nil _) (block_nil _) HS).
  - intros s ss Hs Hss Z o H X Y HS. inversion H as [|? ? ? Z1 ? Hs1 Hss1|? ? ? Hs1]; subst.
    + apply (split_out_seq _ _ _ _ _ _ (Hs _ _ Hs1 _ _ HS)); try apply block_unb.
      intros X' Y' H1 H2 H3. eapply split_out_map; [| |exact (Hss _ _ Hss1 _ _ H3)]; intros o' Ho'; eapply block_cons; eassumption.
    + destruct (Hs _ _ Hs1 _ _ HS) as [H'|H']; [left|right]; apply block_unb, H'.
Qed.

Lemma sem_block_unb_sub3 : forall X Y Z k, sub3 X Y Z ->
  sem_block Z k Unbound -> sem_block X k Unbound \/ sem_block Y k Unbound.
Proof. intros X Y Z k HS H. exact (proj2 sem_split k Z Unbound H X Y HS). Qed.

Lemma sem_block_unb_anti : forall X Z k, PS.Subset X Z -> sem_block Z k Unbound -> sem_block X k Unbound.
Proof.
  intros X Z k HS H.
  destruct (sem_block_unb_sub3 X X Z k (sub3_of_subset _ _ HS) H) as [H'|H']; exact H'.
Qed.

Lemma sem_block_app_fine : forall ss B B2 k o,
  sem_block B ss (Fine B2) -> sem_block B2 k o -> sem_block B (ss ++ k) o.
Proof.
  induction ss as [|s ss IH]; intros B B2 k o H Hk; simpl.
  - inversion H; subst. exact Hk.
  - inversion H as [|B0 s0 ss0 B1 o0 Hs Hss|]; subst.
    eapply block_cons; [exact Hs|]. eapply IH; eassumption.
Qed.

Lemma sem_block_app_inv : forall ss B k o, sem_block B (ss ++ k) o ->
  (o = Unbound /\ sem_block B ss Unbound) \/
  (exists B2, sem_block B ss (Fine B2) /\ sem_block B2 k o).
Proof.
  induction ss as [|s ss IH]; intros B k o H; simpl in H.
  - right. exists B. split; [apply block_nil|exact H].
  - inversion H as [|B0 s0 ss0 B1 o0 Hs Hss|B0 s0 ss0 Hs]; subst.
    + destruct (IH _ _ _ Hss) as [[Eo Hu]|[B2 [H1 H2]]].
      * left. split; [exact Eo|]. eapply block_cons; [exact Hs|exact Hu].
      * right. exists B2. split; [|exact H2]. eapply block_cons; eassumption.
    + left. split; [reflexivity|]. apply block_unb, Hs.
Qed.

(* What completeness of `s :: ss` needs of an accepted s.  That ss fails from the analysis
   result D is not enough: a path through s may end with more than D bound, and from there
   ss need not fail.  So: some path through s ends where the continuation k still fails. *)
Definition K_stmt (s : stmt) : Prop :=
  forall B D k, da B s = Some D -> sem_block D k Unbound ->
    exists B1, sem B s (Fine B1) /\ sem_block B1 k Unbound.

Definition K_block (ss : list stmt) : Prop :=
  forall B D k, da_block B ss = Some D -> sem_block D k Unbound ->
    exists B1, sem_block B ss (Fine B1) /\ sem_block B1 k Unbound.

Lemma K_all : (forall s, K_stmt s) /\ (forall ss, K_block ss).
Proof.
  apply stmt_block_ind;
    try (intros; intros B D k HD Hk; exists D; split; [apply sem_simple; [exact I|rewrite HD; reflexivity]|exact Hk]).
  - intros p e body _ B D k HD Hk. rewrite da_for_eq in HD.
    destruct (expr_ok B e) eqn:E; [|discriminate].
    destruct (da_block (add_all (pat_vars p) B) body) as [D0|]; [|discriminate]. injection HD as <-.
    exists B. split; [|exact Hk]. apply sem_for_iters; [exact E|apply loop_done].
  - intros c a b Ha Hb B D k HD Hk. rewrite da_if_eq in HD.
    destruct (expr_ok B c) eqn:E; [|discriminate].
    destruct (da_block B a) as [Da|] eqn:Ea; [|discriminate].
    destruct (da_block B b) as [Db|] eqn:Eb; [|discriminate]. injection HD as <-.
    destruct (sem_block_unb_sub3 Da Db _ k (sub3_inter Da Db) Hk) as [H|H].
    + destruct (Ha B Da k Ea H) as [B1 [H1 H2]].
      exists B1. split; [|exact H2]. apply sem_if_then; assumption.
    + destruct (Hb B Db k Eb H) as [B1 [H1 H2]].
      exists B1. split; [|exact H2]. apply sem_if_else; assumption.
  - intros B D k HD Hk. injection HD as <-. exists B. split; [apply block_nil|exact Hk].
  - (* the path through s is chosen so that the rest of the block, followed by k, still fails *)
    intros s ss Hs Hss B D k HD Hk. simpl in HD. destruct (da B s) as [D1|] eqn:E; [|discriminate].
    destruct (Hss D1 D k HD Hk) as [B2 [H1 H2]].
    destruct (Hs B D1 (ss ++ k) E (sem_block_app_fine _ _ _ _ _ H1 H2)) as [B1 [Hs1 Hrest]].
    destruct (sem_block_app_inv _ _ _ _ Hrest) as [[_ Hu]|[B3 [H3 H4]]].
    + destruct (proj2 sound_all ss _ _ HD _ _ (proj2 (da_sound s B D1 E) _ Hs1) Hu).
    + exists B3. split; [|exact H4]. eapply block_cons; eassumption.
Qed.

Lemma complete_simple : forall s B, simple s -> da B s = None -> sem B s Unbound.
Proof. intros s B Hs H. apply (sem_simple _ _ _ Hs). rewrite H. reflexivity. Qed.

Lemma complete_all :
  (forall s B, da B s = None -> sem B s Unbound) /\ (forall ss B, da_block B ss = None -> sem_block B ss Unbound).
Proof.
  apply stmt_block_ind; try (intros; apply complete_simple; [exact I|assumption]).
  - intros p e body Hbody B HD. rewrite da_for_eq in HD.
    destruct (expr_ok B e) eqn:E; [|apply sem_for_unb_iter, E].
    destruct (da_block (add_all (pat_vars p) B) body) as [D0|] eqn:E0; [discriminate|].
    apply sem_for_iters; [exact E|]. apply loop_unb, Hbody, E0.
  - intros c a b Ha Hb B HD. rewrite da_if_eq in HD.
    destruct (expr_ok B c) eqn:E; [|apply sem_if_unb, E].
    destruct (da_block B a) as [Da|] eqn:Ea.
    + destruct (da_block B b) as [Db|] eqn:Eb; [discriminate|].
      apply sem_if_else; [exact E|]. apply Hb, Eb.
    + apply sem_if_then; [exact E|]. apply Ha, Ea.
  - discriminate.
  - intros s ss Hs Hss B HD. simpl in HD. destruct (da B s) as [D1|] eqn:E.
    + destruct (proj1 K_all s B D1 ss E (Hss D1 HD)) as [B1 [H1 H2]]. eapply block_cons; eassumption.
    + apply block_unb, Hs, E.
Qed.

Theorem da_complete : forall s B, da B s = None -> sem B s Unbound.
Proof. exact (proj1 complete_all). Qed.

Theorem da_block_complete : forall ss B, da_block B ss = None -> sem_block B ss Unbound.
Proof. exact (proj2 complete_all). Qed.

Corollary da_block_decides : forall ss B,
  (exists D, da_block B ss = Some D) <-> ~ sem_block B ss Unbound.
Proof.
  intros ss B. split.
  - intros [D HD]. apply (da_block_sound ss B D HD).
  - intros Hn. destruct (da_block B ss) as [D|] eqn:E; [exists D; reflexivity|].
    exfalso. apply Hn, da_block_complete, E.
Qed.

(* names: 1 = items, 2 = c, 3 = i, 4 = j, 5 = k, 6 = y, 7 = z, 8 = w

     for (i, (j, k)) in items:
         if c: y = i
         else: y = j
         z = y + k                                                                       *)
Definition ex_ok_prog : list stmt :=
  [SFor (PTup [PName 3; PTup [PName 4; PName 5]]) (EName 1)
     [SIf (EName 2) [SAssign (TName 6) (EName 3)] [SAssign (TName 6) (EName 4)];
      SAssign (TName 7) (EBin BAdd (EName 6) (EName 5))]]%positive.

Definition is_some_equal (r : option PS.t) (xs : list positive) : bool :=
  match r with Some D => PS.equal D (of_list xs) | None => false end.

Example ex_ok_da :
  is_some_equal (da_block (of_list [1; 2]%positive) ex_ok_prog) [1; 2]%positive = true.
Proof. vm_compute. reflexivity. Qed.

Example ex_ok_body :
  is_some_equal
    (da_block (add_all (pat_vars (PTup [PName 3; PTup [PName 4; PName 5]])) (of_list [1; 2]))
       [SIf (EName 2) [SAssign (TName 6) (EName 3)] [SAssign (TName 6) (EName 4)];
        SAssign (TName 7) (EBin BAdd (EName 6) (EName 5))])%positive
    [1; 2; 3; 4; 5; 6; 7]%positive = true.
Proof. vm_compute. reflexivity. Qed.

Example ex_ok_sem : ~ sem_block (of_list [1; 2]%positive) ex_ok_prog Unbound.
Proof.
  destruct (da_block (of_list [1; 2]%positive) ex_ok_prog) as [D|] eqn:E.
  - apply (da_block_sound _ _ _ E).
  - vm_compute in E. discriminate.
Qed.

(* the same program where the else branch binds w instead of y: y is read unbound on the
   path through the else branch

     for (i, (j, k)) in items:
         if c: y = i
         else: w = j
         z = y + k                                                                       *)
Definition ex_bad_prog : list stmt :=
  [SFor (PTup [PName 3; PTup [PName 4; PName 5]]) (EName 1)
     [SIf (EName 2) [SAssign (TName 6) (EName 3)] [SAssign (TName 8) (EName 4)];
      SAssign (TName 7) (EBin BAdd (EName 6) (EName 5))]]%positive.

Example ex_bad_da : da_block (of_list [1; 2]%positive) ex_bad_prog = None.
Proof. vm_compute. reflexivity. Qed.

Example ex_bad_first : first_unbound_block (of_list [1; 2]%positive) ex_bad_prog = Some 6%positive.
Proof. vm_compute. reflexivity. Qed.

Example ex_bad_sem : sem_block (of_list [1; 2]%positive) ex_bad_prog Unbound.
Proof.
  unfold ex_bad_prog. apply block_unb. apply sem_for_iters; [vm_compute; reflexivity|].
  apply loop_unb. eapply block_cons.
  - apply sem_if_else; [vm_compute; reflexivity|].
    eapply block_cons; [apply sem_assign_name; vm_compute; reflexivity|apply block_nil].
  - apply block_unb. apply sem_assign_unb. vm_compute. reflexivity.
Qed.

(* a name first bound inside a loop does not flow out of it (the loop may run zero times)

     for i in items:
         y = i
     y                                                                                   *)
Definition ex_leak_prog : list stmt :=
  [SFor (PName 3) (EName 1) [SAssign (TName 6) (EName 3)]; SExpr (EName 6)]%positive.

Example ex_leak_da : da_block (of_list [1]%positive) ex_leak_prog = None.
Proof. vm_compute. reflexivity. Qed.

Example ex_leak_sem : sem_block (of_list [1]%positive) ex_leak_prog Unbound.
Proof.
  unfold ex_leak_prog. eapply block_cons.
  - apply sem_for_iters; [vm_compute; reflexivity|apply loop_done].
  - apply block_unb. apply sem_expr_unb. vm_compute. reflexivity.
Qed.

(* ... while a path with one iteration does bind it: the semantics really has both *)
Example ex_leak_sem_fine : exists B', sem_block (of_list [1]%positive) ex_leak_prog (Fine B').
Proof.
  unfold ex_leak_prog. eexists. eapply block_cons.
  - apply sem_for_iters; [vm_compute; reflexivity|].
    eapply loop_iter; [|apply loop_done].
    eapply block_cons; [apply sem_assign_name; vm_compute; reflexivity|apply block_nil].
  - eapply block_cons; [apply sem_expr_ok; vm_compute; reflexivity|apply block_nil].
Qed.
