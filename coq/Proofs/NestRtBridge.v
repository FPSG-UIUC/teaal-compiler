(* C02: the SHAPE split of the loop-nest abstraction (Model/NestPart.v) IS the runtime model's splitUniform
   (Model/Rt.v, the function the interpreter runs), under the embedding to_rt of Nest tries into Rt tries, on one fiber
   and at any depth (Rt.tmap_depth, the way Interp.tensor_op applies splitUniform(depth=d)); the runtime model's
   mergeRanks is its inverse, and on ANY two-level image whose concatenation is sorted it is the concatenation; the
   payload the runtime model finds at (.., bucket, c, ..) in the split trie is the one at (.., c, ..) in the original.
   The counterpart for the occupancy split (bounds_split / equal_split are split_nonuniform / split_equal) closes
   NestOccProofs. *)
From Coq Require Import ZArith List Bool Lia String Sorted.
Require TV.Model.Rt TV.Proofs.SplitArith TV.Proofs.RtLaws.
Require Import TV.Proofs.ListFacts.
Require Import TV.Model.Nest TV.Proofs.NestProofs TV.Model.NestPart TV.Proofs.NestPartProofs TV.Model.NestOcc TV.Proofs.NestOccProofs.
Import ListNotations.
Open Scope Z_scope.

(* a fiber the two models split alike: coordinates strictly increasing and non-negative.
   Both are forced: Rt.split_uniform creates partitions only at NON-NEGATIVE multiples of the step (an element c < 0 is
   lost, RtLaws.split_uniform_negative_lost) whereas split_node keeps bucket s c < 0; and Rt.split_uniform emits the
   partitions in increasing order whereas split_node emits them in the order `nodup` leaves them in (that of their
   last occurrences), which is the increasing order only when the buckets are non-decreasing along the fiber. *)
Definition fits (l : list (coord * trie)) : Prop := StronglySorted Z.lt (keys l) /\ Forall (fun c => 0 <= c) (keys l).

(* all the proof needs: buckets non-decreasing, coordinates non-negative (repeated coordinates are allowed) *)
Definition fits_weak (s : Z) (l : list (coord * trie)) : Prop :=
  StronglySorted Z.le (map (bucket s) (keys l)) /\ Forall (fun c => 0 <= c) (keys l).

(* every fiber at depth d fits (and there IS a fiber at depth d on every path: split_at leaves a leaf above depth d
   alone, the runtime operation fails on it) *)
Fixpoint fits_at (d : nat) (t : trie) : Prop :=
  match t with
  | Leaf _ => False
  | Node l => match d with
              | O => fits l
              | S d' => Forall (fun ct => fits_at d' (snd ct)) l
              end
  end.

Lemma fits_fits_weak s l : 0 < s -> fits l -> fits_weak s l.
Proof.
  intros Hs [H1 H2]. split; [|exact H2]. apply SS_map_iff. revert H1. apply SS_impl.
  intros a b _ _ Hab. apply (SplitArith.upper_mono s a b Hs). lia.
Qed.

Lemma bucket_upper s c : bucket s c = SplitArith.upper s c.
Proof. reflexivity. Qed.

Lemma kz_to_rt_ct l : map RtLaws.kz (map to_rt_ct l) = keys l.
Proof. unfold keys. rewrite map_map. apply map_ext. intros [c t]. reflexivity. Qed.

Lemma int_key_to_rt l : Forall RtLaws.int_key (map to_rt_ct l).
Proof. rewrite Forall_forall. intros x Hx. apply in_map_iff in Hx as [[c t] [<- _]]. exists c. reflexivity. Qed.

Lemma nodup_sorted l : StronglySorted Z.le l -> StronglySorted Z.lt (nodup Z.eq_dec l).
Proof.
  induction 1 as [|x l Hs IH Hf]; cbn [nodup]; [constructor|].
  destruct (in_dec Z.eq_dec x l) as [Hin|Hnin]; [exact IH|]. constructor; [exact IH|].
  rewrite Forall_forall in *. intros y Hy. apply nodup_In in Hy. specialize (Hf y Hy).
  assert (x <> y) by (intros ->; contradiction). lia.
Qed.

Lemma su_starts_nodup s cs : 0 < s -> StronglySorted Z.le (map (bucket s) cs) -> Forall (fun c => 0 <= c) cs ->
  RtLaws.su_starts s 0 0 cs = nodup Z.eq_dec (map (bucket s) cs).
Proof.
  intros Hs Hb Hnn. destruct (RtLaws.su_starts_spec s 0 0 cs Hs) as [Hss Hin].
  apply (SS_In_ext Z.lt); [intros a b; lia|exact Hss|apply nodup_sorted; exact Hb|].
  rewrite Forall_forall in Hnn. intros x. rewrite Hin, nodup_In, in_map_iff. split.
  - intros [c [k [Hc [Hk [-> Hr]]]]]. exists c. split; [|exact Hc].
    symmetry. apply (SplitArith.upper_unique s c (s * k) Hs); [exists k; reflexivity|lia].
  - intros [c [<- Hc]]. exists c, (c / s). specialize (Hnn c Hc). pose proof (SplitArith.upper_covers s c Hs) as Hr.
    split; [exact Hc|]. split; [apply Z.div_pos; lia|]. split; [reflexivity|]. rewrite bucket_upper. lia.
Qed.

Lemma su_sel_to_rt s k l : 0 < s ->
  RtLaws.su_sel s 0 0 (s * k) (map to_rt_ct l) = map to_rt_ct (filter (fun ct => bucket s (fst ct) =? s * k) l).
Proof. intros Hs. rewrite (RtLaws.su_sel_upper s k _ Hs), filter_map_comm. reflexivity. Qed.

Theorem split_node_is_split_uniform_weak s l : 0 < s -> fits_weak s l ->
  Rt.split_uniform s 0 0 (to_rt (Node l)) = Some (to_rt (Node (split_node s l))).
Proof.
  intros Hs [Hb Hnn]. rewrite !to_rt_node. rewrite (RtLaws.split_uniform_eq s 0 0 _ Hs (int_key_to_rt l)).
  rewrite kz_to_rt_ct. unfold keys in *. rewrite (su_starts_nodup s (map fst l) Hs Hb Hnn).
  rewrite (map_map fst (bucket s)). unfold split_node. rewrite !map_map. f_equal. f_equal. apply map_ext_in. intros p Hp.
  apply nodup_In, in_map_iff in Hp as [ct [<- _]]. unfold to_rt_ct at 2. cbn [fst snd]. rewrite to_rt_node.
  unfold bucket at 1 2. rewrite (su_sel_to_rt s (fst ct / s) l Hs). reflexivity.
Qed.

Theorem split_node_is_split_uniform s l : 0 < s -> fits l ->
  Rt.split_uniform s 0 0 (to_rt (Node l)) = Some (to_rt (Node (split_node s l))).
Proof. intros Hs Hf. apply split_node_is_split_uniform_weak; [exact Hs|apply fits_fits_weak; assumption]. Qed.

Fixpoint lift_at (d : nat) (g : trie -> trie) (t : trie) {struct d} : trie :=
  match d with
  | O => g t
  | S d' => match t with
            | Node l => Node (map (fun ct => (fst ct, lift_at d' g (snd ct))) l)
            | Leaf v => Leaf v
            end
  end.

Fixpoint holds_at (d : nat) (P : trie -> Prop) (t : trie) : Prop :=
  match d with
  | O => P t
  | S d' => match t with
            | Node l => Forall (fun ct => holds_at d' P (snd ct)) l
            | Leaf _ => False
            end
  end.

Lemma tmap_depth_lift (f : Rt.trie -> option Rt.trie) (g : trie -> trie) (P : trie -> Prop) :
  (forall t, P t -> f (to_rt t) = Some (to_rt (g t))) ->
  forall d t, holds_at d P t -> Rt.tmap_depth d f (to_rt t) = Some (to_rt (lift_at d g t)).
Proof.
  intros Hfg. induction d as [|d IH]; intros t H; cbn [holds_at] in H; [apply Hfg; exact H|].
  destruct t as [v|l]; [destruct H|]. cbn [lift_at]. rewrite !to_rt_node, RtLaws.tmap_depth_S.
  enough (G : RtLaws.tmap_go (Rt.tmap_depth d f) (map to_rt_ct l)
              = Some (map to_rt_ct (map (fun ct => (fst ct, lift_at d g (snd ct))) l)))
    by (rewrite G; reflexivity).
  induction H as [|[c s] l Hct Hl IHl]; [reflexivity|]. cbn [map RtLaws.tmap_go to_rt_ct fst snd] in *.
  rewrite (IH _ Hct), IHl. reflexivity.
Qed.

Definition split_top (s : Z) (t : trie) : trie := match t with Node l => Node (split_node s l) | Leaf v => Leaf v end.

Lemma split_at_lift : forall d s t, split_at d s t = lift_at d (split_top s) t.
Proof.
  induction d as [|d IH]; intros s [v|l]; cbn [split_at lift_at split_top]; try reflexivity.
  f_equal. apply map_ext. intros ct. rewrite IH. reflexivity.
Qed.

Definition fiber_fits (t : trie) : Prop := match t with Node l => fits l | Leaf _ => False end.

Lemma fits_at_holds : forall d t, fits_at d t <-> holds_at d fiber_fits t.
Proof.
  induction d as [|d IH]; intros [v|l]; cbn [fits_at holds_at fiber_fits]; try tauto.
  rewrite !Forall_forall. split; intros H ct Hct; apply IH, H, Hct.
Qed.

Theorem split_at_is_tmap_split_uniform d s t : 0 < s -> fits_at d t ->
  Rt.tmap_depth d (Rt.split_uniform s 0 0) (to_rt t) = Some (to_rt (split_at d s t)).
Proof.
  intros Hs Hf. rewrite split_at_lift. apply (tmap_depth_lift _ _ fiber_fits); [|apply fits_at_holds; exact Hf].
  intros [v|l] H; [destruct H|]. apply split_node_is_split_uniform; assumption.
Qed.

Lemma int_sorted_to_rt l : StronglySorted Z.lt (keys l) -> RtLaws.int_sorted (map to_rt_ct l).
Proof.
  intros H. split; [apply int_key_to_rt|]. apply SS_map_iff. exact (proj1 (SS_map_iff Z.lt fst l) H).
Qed.

Lemma nonneg_to_rt l : Forall (fun c => 0 <= c) (keys l) -> RtLaws.nonneg_keys (map to_rt_ct l).
Proof.
  unfold RtLaws.nonneg_keys, keys. rewrite !Forall_map. intros H. exact H.
Qed.

Theorem merge1_split_node s l : 0 < s -> fits l ->
  Rt.merge1 (to_rt (Node (split_node s l))) = Some (to_rt (Node l)).
Proof.
  intros Hs Hf. pose proof (split_node_is_split_uniform s l Hs Hf) as E. destruct Hf as [H1 H2].
  rewrite to_rt_node in E at 1.
  destruct (RtLaws.split_uniform_merge1 s (map to_rt_ct l) Hs (int_sorted_to_rt l H1) (nonneg_to_rt l H2)) as [t' [E1 E2]].
  rewrite E in E1. injection E1 as <-. exact E2.
Qed.

Lemma merge_levels_1 t : Rt.merge_levels 1 t = Rt.merge1 t.
Proof. cbn [Rt.merge_levels]. destruct (Rt.merge1 t); reflexivity. Qed.

(* the footer's call: mergeRanks(depth=d, levels=1, coord_style="absolute") runs Rt.merge_levels 1 *)
Corollary merge_levels_split_node s l : 0 < s -> fits l ->
  Rt.merge_levels 1 (to_rt (Node (split_node s l))) = Some (to_rt (Node l)).
Proof. intros. rewrite merge_levels_1. apply merge1_split_node; assumption. Qed.

Lemma fits_at_rt : forall d t, fits_at d t ->
  RtLaws.at_depth d (RtLaws.fiber_ok (fun l => RtLaws.int_sorted l /\ RtLaws.nonneg_keys l)) (to_rt t).
Proof.
  induction d as [|d IH]; intros [v|l] H; cbn [fits_at] in H; try contradiction.
  - cbn [RtLaws.at_depth]. exists (map to_rt_ct l). split; [reflexivity|].
    destruct H as [H1 H2]. split; [apply int_sorted_to_rt; exact H1|apply nonneg_to_rt; exact H2].
  - cbn [RtLaws.at_depth]. exists (map to_rt_ct l). split; [reflexivity|].
    rewrite Forall_forall in *. intros x Hx. apply in_map_iff in Hx as [[c t] [<- Hx]]. cbn [to_rt_ct snd].
    apply IH. apply (H _ Hx).
Qed.

Theorem merge1_split_at d s t : 0 < s -> fits_at d t ->
  Rt.tmap_depth d Rt.merge1 (to_rt (split_at d s t)) = Some (to_rt t).
Proof.
  intros Hs Hf. destruct (RtLaws.split_uniform_merge1_depth d s (to_rt t) Hs (fits_at_rt d t Hf)) as [t' [E1 E2]].
  rewrite (split_at_is_tmap_split_uniform d s t Hs Hf) in E1. injection E1 as <-. exact E2.
Qed.

Lemma tmap_depth_ext f g : (forall t, f t = g t) -> forall d t, Rt.tmap_depth d f t = Rt.tmap_depth d g t.
Proof.
  intros Hfg. induction d as [|d IH]; intros t; [apply Hfg|]. destruct t as [v|l]; [reflexivity|].
  rewrite !RtLaws.tmap_depth_S. f_equal. induction l as [|[c s] l IHl]; [reflexivity|]. cbn [RtLaws.tmap_go]. rewrite IH, IHl. reflexivity.
Qed.

Corollary merge_levels_split_at d s t : 0 < s -> fits_at d t ->
  Rt.tmap_depth d (Rt.merge_levels 1) (to_rt (split_at d s t)) = Some (to_rt t).
Proof. intros. rewrite (tmap_depth_ext _ _ merge_levels_1). apply merge1_split_at; assumption. Qed.

(* the merge itself, on ANY two-level trie (not only on split images: the partitioned OUTPUT the footer merges is
   built by the loop nest, not by splitUniform): when the lower fibers concatenated are strictly increasing - the
   partitions are consecutive pieces - mergeRanks is their concatenation *)
Definition merge_node (parts : list (coord * trie)) : list (coord * trie) := flat_map (fun pt => children (snd pt)) parts.

Lemma lowers_to_rt parts : Forall (fun pt : coord * trie => exists l', snd pt = Node l') parts ->
  List.concat (RtLaws.lowers (map to_rt_ct parts)) = map to_rt_ct (merge_node parts).
Proof.
  unfold RtLaws.lowers, merge_node. induction 1 as [|[p t] parts [l' E] _ IH]; [reflexivity|].
  cbn [snd] in E. subst t. cbn [map List.concat flat_map snd children]. rewrite map_app, <- IH. reflexivity.
Qed.

Theorem merge_node_is_merge1 parts :
  Forall (fun pt : coord * trie => exists l', snd pt = Node l') parts -> StronglySorted Z.lt (keys (merge_node parts)) ->
  Rt.merge1 (to_rt (Node parts)) = Some (to_rt (Node (merge_node parts))).
Proof.
  intros Hn Hs. rewrite !to_rt_node. rewrite RtLaws.merge1_concat.
  - rewrite (lowers_to_rt parts Hn). reflexivity.
  - unfold RtLaws.all_nodes. rewrite Forall_forall in *. intros x Hx. apply in_map_iff in Hx as [[p t] [<- Hx]]. destruct (Hn _ Hx) as [l' E].
    cbn [snd] in E. subst t. exists (map to_rt_ct l'). reflexivity.
  - rewrite (lowers_to_rt parts Hn). apply int_sorted_to_rt. exact Hs.
Qed.

Theorem merge_node_split_node s l : fits_weak s l -> merge_node (split_node s l) = l.
Proof.
  intros [Hb _]. unfold keys in Hb. rewrite map_map in Hb.
  unfold merge_node, split_node. rewrite flat_map_concat_map, map_map. cbn [snd children].
  apply (RtLaws.classes_concat (fun ct : coord * trie => bucket s (fst ct))).
  - apply nodup_sorted. exact Hb.
  - exact (proj1 (SS_map_iff Z.le _ l) Hb).
  - intros a Ha. apply nodup_In. apply (in_map (fun ct : coord * trie => bucket s (fst ct))) in Ha. exact Ha.
Qed.

Lemma alookup_to_rt c l : Rt.alookup (Rt.VInt c) (map to_rt_ct l) = option_map to_rt (lookup c l).
Proof.
  induction l as [|[c' t] l IH]; [reflexivity|]. cbn [map to_rt_ct Rt.alookup lookup fst snd]. rewrite RtLaws.veqb_int.
  destruct (c =? c'); [reflexivity|exact IH].
Qed.

Lemma zl_to_rt : forall zs t, RtLaws.zl zs (to_rt t) = option_map Rt.VInt (nlookup zs t).
Proof.
  induction zs as [|c zs IH]; intros [v|l]; try reflexivity.
  rewrite to_rt_node, RtLaws.zl_cons, alookup_to_rt. cbn [nlookup]. destruct (lookup c l); cbn [option_map]; [apply IH|reflexivity].
Qed.

Definition rt_den (zs : list Z) (T : Rt.trie) : Z := match RtLaws.zl zs T with Some (Rt.VInt v) => v | _ => 0 end.

Lemma den_rt rs t p : den rs t p = rt_den (map p rs) (to_rt t).
Proof. unfold rt_den. rewrite zl_to_rt, den_nlookup. destruct (nlookup (map p rs) t); reflexivity. Qed.

Theorem zl_split_at d s t pre u c post : List.length pre = d ->
  RtLaws.zl (pre ++ u :: c :: post) (to_rt (split_at d s t)) =
  if u =? bucket s c then RtLaws.zl (pre ++ c :: post) (to_rt t) else None.
Proof.
  intros Hlen. rewrite !zl_to_rt, (nlookup_split_at d s t pre u c post Hlen). destruct (u =? bucket s c); reflexivity.
Qed.

Theorem split_uniform_lookup d s t T' pre c post : 0 < s -> fits_at d t -> List.length pre = d ->
  Rt.tmap_depth d (Rt.split_uniform s 0 0) (to_rt t) = Some T' ->
  RtLaws.zl (pre ++ bucket s c :: c :: post) T' = RtLaws.zl (pre ++ c :: post) (to_rt t) /\
  forall u, u <> bucket s c -> RtLaws.zl (pre ++ u :: c :: post) T' = None.
Proof.
  intros Hs Hf Hlen E. rewrite (split_at_is_tmap_split_uniform d s t Hs Hf) in E. injection E as <-. split.
  - rewrite (zl_split_at d s t pre _ c post Hlen), Z.eqb_refl. reflexivity.
  - intros u Hu. rewrite (zl_split_at d s t pre u c post Hlen). destruct (Z.eqb_spec u (bucket s c)); [contradiction|reflexivity].
Qed.

Theorem den_split_uniform d rs t p r r1 r0 s T' : 0 < s -> fits_at d t -> nth_error rs d = Some r -> NoDup rs ->
  Rt.tmap_depth d (Rt.split_uniform s 0 0) (to_rt t) = Some T' ->
  rt_den (map p (split_ranks d r1 r0 rs)) T' =
  if consistent r1 r0 s p then rt_den (map (collapse r r0 p) rs) (to_rt t) else 0.
Proof.
  intros Hs Hf Hnth Hnd E. rewrite (split_at_is_tmap_split_uniform d s t Hs Hf) in E. injection E as <-.
  rewrite <- !den_rt. apply den_split_at; assumption.
Qed.

Definition merge_top (t : trie) : trie := match t with Node parts => Node (merge_node parts) | Leaf v => Leaf v end.
Definition mergeable (t : trie) : Prop :=
  match t with
  | Node parts => Forall (fun pt : coord * trie => exists l', snd pt = Node l') parts /\
                  StronglySorted Z.lt (keys (merge_node parts))
  | Leaf _ => False
  end.

Theorem merge_at_is_tmap_merge1 d t : holds_at d mergeable t ->
  Rt.tmap_depth d Rt.merge1 (to_rt t) = Some (to_rt (lift_at d merge_top t)).
Proof.
  apply (tmap_depth_lift Rt.merge1 merge_top mergeable). intros [v|parts] H; [destruct H|].
  destruct H as [H1 H2]. apply merge_node_is_merge1; assumption.
Qed.

Lemma fits_filter (f : coord * trie -> bool) l : fits l -> fits (filter f l).
Proof.
  intros [H1 H2]. split; [apply keys_filter_sorted; exact H1|]. unfold keys in *. rewrite Forall_map in *.
  exact (incl_Forall (incl_filter f l) H2).
Qed.

Lemma fits_at_split_at : forall d s t, fits_at d t -> fits_at (S d) (split_at d s t).
Proof.
  induction d as [|d IH]; intros s [v|l] H; cbn [fits_at] in H; try contradiction.
  - cbn [split_at fits_at]. unfold split_node. rewrite Forall_forall. intros pt Hpt. apply in_map_iff in Hpt as [p [<- _]].
    cbn [snd fits_at]. apply fits_filter. exact H.
  - cbn [split_at]. change (Forall (fun ct => fits_at (S d) (snd ct)) (map (fun ct => (fst ct, split_at d s (snd ct))) l)).
    rewrite Forall_forall in *. intros x Hx. apply in_map_iff in Hx as [ct [<- Hx]]. cbn [snd]. apply IH, H, Hx.
Qed.

(* a two-level stack on one rank (the trie side of NestPartProofs.partitioned_nest_sound_2): splitUniform(s2, depth=d)
   then splitUniform(s1, depth=d+1) *)
Theorem split_at_2_is_tmap_split_uniform d s2 s1 t : 0 < s2 -> 0 < s1 -> fits_at d t ->
  exists T1, Rt.tmap_depth d (Rt.split_uniform s2 0 0) (to_rt t) = Some T1 /\
    Rt.tmap_depth (S d) (Rt.split_uniform s1 0 0) T1 = Some (to_rt (split_at (S d) s1 (split_at d s2 t))).
Proof.
  intros H2 H1 Hf. eexists. split; [apply split_at_is_tmap_split_uniform; assumption|].
  apply split_at_is_tmap_split_uniform; [exact H1|apply fits_at_split_at; exact Hf].
Qed.

Definition fitsb (l : list (coord * trie)) : bool := sortedb (keys l) && forallb (fun c => 0 <=? c) (keys l).
Fixpoint fits_atb (d : nat) (t : trie) : bool :=
  match t with
  | Leaf _ => false
  | Node l => match d with
              | O => fitsb l
              | S d' => forallb (fun ct => fits_atb d' (snd ct)) l
              end
  end.

Lemma fitsb_sound l : fitsb l = true -> fits l.
Proof.
  unfold fitsb, fits. intros H. apply andb_true_iff in H as [H1 H2]. split; [apply sortedb_iff; exact H1|].
  rewrite Forall_forall. rewrite forallb_forall in H2. intros c Hc. specialize (H2 c Hc). lia.
Qed.

Lemma fits_atb_sound : forall d t, fits_atb d t = true -> fits_at d t.
Proof.
  induction d as [|d IH]; intros [v|l] H; cbn [fits_atb fits_at] in *; try discriminate.
  - apply fitsb_sound. exact H.
  - rewrite Forall_forall. rewrite forallb_forall in H. intros ct Hct. apply IH, H, Hct.
Qed.

Section Examples.
Local Open Scope string_scope.
(* a matrix with ranks M, K; rank K (depth 1) is split by 3: the first row has buckets 0, 3, 9, 21 (bucket 6, 12, .. are
   empty and do not appear), the second row buckets 0 and 6 *)
Definition ex_fiber : list (coord * trie) :=
  [(0, Leaf 1); (1, Leaf 2); (4, Leaf 3); (5, Leaf 4); (9, Leaf 5); (10, Leaf 6); (23, Leaf 7)].
Definition ex_mat : trie := Node [(0, Node ex_fiber); (3, Node [(2, Leaf 8); (7, Leaf 9)])].
Definition ex_fiber_split : list (coord * trie) :=
  [(0, Node [(0, Leaf 1); (1, Leaf 2)]); (3, Node [(4, Leaf 3); (5, Leaf 4)]); (9, Node [(9, Leaf 5); (10, Leaf 6)]);
   (21, Node [(23, Leaf 7)])].
Definition ex_mat_split : trie :=
  Node [(0, Node ex_fiber_split); (3, Node [(0, Node [(2, Leaf 8)]); (6, Node [(7, Leaf 9)])])].

Example ex_fiber_fits : fits ex_fiber.
Proof. apply fitsb_sound. vm_compute. reflexivity. Qed.
Example ex_mat_fits : fits_at 1 ex_mat.
Proof. apply fits_atb_sound. vm_compute. reflexivity. Qed.

Example split_node_is_split_uniform_ex :
  split_node 3 ex_fiber = ex_fiber_split /\
  Rt.split_uniform 3 0 0 (to_rt (Node ex_fiber)) = Some (to_rt (Node ex_fiber_split)).
Proof.
  split; [vm_compute; reflexivity|]. rewrite (split_node_is_split_uniform 3 ex_fiber eq_refl ex_fiber_fits).
  vm_compute. reflexivity.
Qed.

Example split_at_is_tmap_split_uniform_ex :
  split_at 1 3 ex_mat = ex_mat_split /\
  Rt.tmap_depth 1 (Rt.split_uniform 3 0 0) (to_rt ex_mat) = Some (to_rt ex_mat_split).
Proof.
  split; [vm_compute; reflexivity|]. rewrite (split_at_is_tmap_split_uniform 1 3 ex_mat eq_refl ex_mat_fits).
  vm_compute. reflexivity.
Qed.

Example merge1_split_node_ex : Rt.merge1 (to_rt (Node ex_fiber_split)) = Some (to_rt (Node ex_fiber)).
Proof. exact (merge1_split_node 3 ex_fiber eq_refl ex_fiber_fits). Qed.

Example merge_levels_split_at_ex : Rt.tmap_depth 1 (Rt.merge_levels 1) (to_rt ex_mat_split) = Some (to_rt ex_mat).
Proof. exact (merge_levels_split_at 1 3 ex_mat eq_refl ex_mat_fits). Qed.

(* the merge of a two-level trie that is NOT a split image (partition coordinates are not buckets) *)
Example merge_node_is_merge1_ex :
  let parts := [(2, Node [(0, Leaf 1); (5, Leaf 2)]); (1, Node []); (7, Node [(6, Leaf 3)])] in
  Rt.merge1 (to_rt (Node parts)) = Some (to_rt (Node [(0, Leaf 1); (5, Leaf 2); (6, Leaf 3)])).
Proof.
  cbv zeta. rewrite merge_node_is_merge1; [vm_compute; reflexivity| |apply sortedb_iff; vm_compute; reflexivity].
  repeat constructor; eexists; reflexivity.
Qed.

Example merge_node_split_node_ex : merge_node (split_node 3 ex_fiber) = ex_fiber.
Proof. apply merge_node_split_node, fits_fits_weak; [reflexivity|exact ex_fiber_fits]. Qed.

(* the hypotheses are needed: a negative coordinate, a decreasing fiber *)
Example split_node_negative_differs :
  Rt.split_uniform 3 0 0 (to_rt (Node [(-2, Leaf 1); (1, Leaf 2)])) <> Some (to_rt (Node (split_node 3 [(-2, Leaf 1); (1, Leaf 2)]))).
Proof. vm_compute. discriminate. Qed.
Example split_node_unsorted_differs :
  Rt.split_uniform 3 0 0 (to_rt (Node [(1, Leaf 1); (5, Leaf 2); (0, Leaf 3)])) <>
  Some (to_rt (Node (split_node 3 [(1, Leaf 1); (5, Leaf 2); (0, Leaf 3)]))).
Proof. vm_compute. discriminate. Qed.

Example split_uniform_lookup_ex : forall T', Rt.tmap_depth 1 (Rt.split_uniform 3 0 0) (to_rt ex_mat) = Some T' ->
  RtLaws.zl [0; 9; 10] T' = Some (Rt.VInt 6) /\ RtLaws.zl [0; 3; 10] T' = None /\ RtLaws.zl [3; 6; 7] T' = Some (Rt.VInt 9).
Proof.
  intros T' E.
  destruct (split_uniform_lookup 1 3 ex_mat T' [0] 10 [] eq_refl ex_mat_fits eq_refl E) as [E1 E2].
  destruct (split_uniform_lookup 1 3 ex_mat T' [3] 7 [] eq_refl ex_mat_fits eq_refl E) as [E3 _].
  split; [exact E1|]. split; [apply E2; vm_compute; discriminate|exact E3].
Qed.

Example den_split_uniform_ex : forall T', Rt.tmap_depth 1 (Rt.split_uniform 3 0 0) (to_rt ex_mat) = Some T' ->
  let p (u c : Z) : point := fun r => if String.eqb r "M" then 0 else if String.eqb r "K1" then u else if String.eqb r "K0" then c else 0 in
  rt_den (map (p 9 10) ["M"; "K1"; "K0"]) T' = 6 /\ rt_den (map (p 3 10) ["M"; "K1"; "K0"]) T' = 0.
Proof.
  intros T' E p. change ["M"; "K1"; "K0"] with (split_ranks 1 "K1" "K0" ["M"; "K"]). split.
  - etransitivity; [apply (den_split_uniform 1 ["M"; "K"] ex_mat (p 9 10) "K" "K1" "K0" 3 T' eq_refl ex_mat_fits eq_refl); [|exact E]|vm_compute; reflexivity].
    repeat constructor; cbn; intuition discriminate.
  - etransitivity; [apply (den_split_uniform 1 ["M"; "K"] ex_mat (p 3 10) "K" "K1" "K0" 3 T' eq_refl ex_mat_fits eq_refl); [|exact E]|vm_compute; reflexivity].
    repeat constructor; cbn; intuition discriminate.
Qed.

Example merge_at_is_tmap_merge1_ex :
  Rt.tmap_depth 1 Rt.merge1 (to_rt (Node [(4, Node [(2, Node [(0, Leaf 1); (5, Leaf 2)]); (7, Node [(6, Leaf 3)])]); (5, Node [])]))
  = Some (to_rt (Node [(4, Node [(0, Leaf 1); (5, Leaf 2); (6, Leaf 3)]); (5, Node [])])).
Proof.
  rewrite merge_at_is_tmap_merge1; [vm_compute; reflexivity|]. cbn [holds_at].
  constructor; [|constructor; [|constructor]]; cbn [snd mergeable].
  - split; [|apply sortedb_iff; vm_compute; reflexivity].
    constructor; [eexists; reflexivity|]. constructor; [eexists; reflexivity|constructor].
  - split; constructor.
Qed.


Example split_at_2_is_tmap_split_uniform_ex :
  exists T1, Rt.tmap_depth 1 (Rt.split_uniform 6 0 0) (to_rt ex_mat) = Some T1 /\
    Rt.tmap_depth 2 (Rt.split_uniform 3 0 0) T1 =
             Some (to_rt (Node [(0, Node [(0, Node [(0, Node [(0, Leaf 1); (1, Leaf 2)]); (3, Node [(4, Leaf 3); (5, Leaf 4)])]);
                                          (6, Node [(9, Node [(9, Leaf 5); (10, Leaf 6)])]);
                                          (18, Node [(21, Node [(23, Leaf 7)])])]);
                                (3, Node [(0, Node [(0, Node [(2, Leaf 8)])]); (6, Node [(6, Node [(7, Leaf 9)])])])])).
Proof.
  destruct (split_at_2_is_tmap_split_uniform 1 6 3 ex_mat eq_refl eq_refl ex_mat_fits) as [T1 [E1 E2]].
  exists T1. split; [exact E1|]. rewrite E2. vm_compute. reflexivity.
Qed.
End Examples.
