(* C11: the keywords that only the metrics instrumentation passes (an explicit output shape, trace=)
   do not change what a runtime call computes.  That the API calls only allocate or log is
   Proofs/Spacetime.v: observation_calls_frame. *)
From Coq Require Import String List.
Require Import TV.Model.Interp TV.Proofs.ListFacts.
Import ListNotations.
Close Scope Z_scope.

Lemma kwarg_app_None k kw kw' : kwarg k kw' = None -> kwarg k (kw ++ kw') = kwarg k kw.
Proof.
  unfold kwarg. rewrite find_app. destruct (find _ kw); [reflexivity|].
  destruct (find _ kw'); [discriminate|reflexivity].
Qed.

Theorem Tensor_reads_rank_ids_and_name args kw kw' st :
  kwarg "rank_ids" kw = kwarg "rank_ids" kw' -> kwarg "name" kw = kwarg "name" kw' ->
  global_call "Tensor" args kw st = global_call "Tensor" args kw' st.
Proof.
  intros Hr Hn. unfold global_call. change (String.eqb "Tensor" "Tensor") with true. cbv iota.
  rewrite Hr, Hn. reflexivity.
Qed.

Theorem shape_irrelevant args kw shape st :
  global_call "Tensor" args (kw ++ [("shape"%string, shape)]) st = global_call "Tensor" args kw st.
Proof. apply Tensor_reads_rank_ids_and_name; apply kwarg_app_None; reflexivity. Qed.

Theorem trace_kwarg_irrelevant fv args kw kw' st :
  fiber_method fv "getPayload" args kw st = fiber_method fv "getPayload" args kw' st.
Proof. reflexivity. Qed.
