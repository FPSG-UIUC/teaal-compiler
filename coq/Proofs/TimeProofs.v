(* Proofs about Model/Time.v (property C14).  Two expressions are shown to denote the roll-up in every
   structure (add, max, zero) with commutative, associative operations and zero neutral for add (`maxplus`): the one build_time makes, through an
   invariant of its dictionary (dinv), and any one time_okb accepts, through its shape, a nested multiset whose
   equality test yields permutations, under which sums and maxima do not change.  Every step states beside the
   value which leaves the expression has; in the one-point structure only that half is left. *)
From Coq Require Import String List Ascii QArith Qcanon Lia Permutation.
Require Import TV.Model.Fusion TV.Model.Time TV.Proofs.ListFacts TV.Proofs.FusionProofs.
Import ListNotations.
Open Scope list_scope.

Lemma nodup_s_In x l : In x (nodup_s l) <-> In x l.
Proof.
  induction l as [|y l IH]; simpl; [tauto|].
  rewrite filter_In, IH, negb_true_iff, String.eqb_neq.
  split; [intros [E|[H _]]; [left; exact E|right; exact H]|intros [E|H]; [left; exact E|]].
  destruct (string_dec y x) as [E|N]; [left; exact E|right; split; [exact H|congruence]].
Qed.

Lemma nodup_s_NoDup l : NoDup (nodup_s l).
Proof.
  induction l as [|y l IH]; simpl; constructor.
  - rewrite filter_In, negb_true_iff, String.eqb_neq. tauto.
  - apply NoDup_filter. exact IH.
Qed.

Lemma of_comp_app c l1 l2 : of_comp c (l1 ++ l2) = of_comp c l1 ++ of_comp c l2.
Proof. apply filter_app. Qed.

Lemma of_comp_absent c ps : ~ In c (map snd ps) -> of_comp c ps = [].
Proof.
  intros H. apply filter_none. intros p Hp. apply String.eqb_neq. intros E. apply H. rewrite <- E. apply in_map, Hp.
Qed.

Lemma groups_cons ks p l : NoDup ks -> In (snd p) ks ->
  Permutation (flat_map (fun c => of_comp c (p :: l)) ks) (p :: flat_map (fun c => of_comp c l) ks).
Proof.
  induction 1 as [|k ks Hk Hnd IH]; intros Hin; [destruct Hin|]. cbn [flat_map]. unfold of_comp at 1. cbn [filter].
  destruct (String.eqb_spec (snd p) k) as [E|N].
  - cbn [app]. constructor. apply Permutation_app_head.
    rewrite (flat_map_ext_in (fun c => of_comp c (p :: l)) (fun c => of_comp c l)); [reflexivity|].
    intros c Hc. unfold of_comp. cbn [filter]. destruct (String.eqb_spec (snd p) c); [congruence|reflexivity].
  - destruct Hin as [E|Hin]; [congruence|]. rewrite (IH Hin). symmetry. apply Permutation_middle.
Qed.

Lemma groups_perm ks l : NoDup ks -> (forall p, In p l -> In (snd p) ks) ->
  Permutation (flat_map (fun c => of_comp c l) ks) l.
Proof.
  intros Hnd. induction l as [|p l IH]; intros Hin.
  - rewrite (proj2 (flat_map_nil_iff _ ks)); [constructor|reflexivity].
  - rewrite groups_cons; [|exact Hnd|apply Hin; left; reflexivity].
    constructor. apply IH. intros q Hq. apply Hin. right. exact Hq.
Qed.

Lemma as_leaves_snoc l e c : as_leaves (l ++ [TLeaf e c]) = option_map (fun g => g ++ [(e, c)]) (as_leaves l).
Proof.
  induction l as [|x l IH]; simpl; [reflexivity|]. destruct x; try reflexivity.
  rewrite IH. destruct (as_leaves l); reflexivity.
Qed.

Lemma leaves_summands x : leaves x = flat_map leaves (summands x).
Proof.
  induction x; simpl; try reflexivity.
  - rewrite flat_map_app. congruence.
  - rewrite app_nil_r. reflexivity.
Qed.

Lemma leaves_maxargs x : leaves x = flat_map leaves (maxargs x).
Proof.
  induction x; simpl; try (rewrite app_nil_r; reflexivity); try reflexivity.
  rewrite flat_map_app. congruence.
Qed.

(* what block_expr builds from the values of the sorted keys: 0, the value itself, or max(v1, v2, ...) *)
Definition maxexp (vs : list texp) : texp := match vs with [] => TZero | v :: vs' => fold_left TMax vs' v end.

Lemma leaves_maxexp vs : leaves (maxexp vs) = flat_map leaves vs.
Proof.
  destruct vs as [|v vs]; [reflexivity|]. simpl. revert v.
  induction vs as [|w vs IH]; intros v; simpl; [symmetry; apply app_nil_r|].
  rewrite IH. simpl. symmetry. apply app_assoc.
Qed.

Lemma dict_get_add d c t k :
  dict_get (dict_add d c t) k =
  if String.eqb k c then Some (match dict_get d c with Some v => TAdd v t | None => t end) else dict_get d k.
Proof.
  induction d as [|[k' v] d IH]; simpl.
  - rewrite (String.eqb_sym c k). reflexivity.
  - destruct (String.eqb_spec k' c) as [->|N]; simpl.
    + rewrite (String.eqb_sym c k). destruct (String.eqb_spec k c); reflexivity.
    + destruct (String.eqb_spec k' k) as [->|N2].
      * destruct (String.eqb_spec k c); [congruence|reflexivity].
      * exact IH.
Qed.

Lemma keys_dict_add d c t :
  map fst (dict_add d c t) = if mem c (map fst d) then map fst d else map fst d ++ [c].
Proof.
  unfold mem. induction d as [|[k' v] d IH]; simpl; [reflexivity|].
  rewrite (String.eqb_sym c k'). destruct (String.eqb k' c); simpl; [reflexivity|].
  rewrite IH. destruct (existsb (String.eqb c) (map fst d)); reflexivity.
Qed.

Lemma dict_get_some_in d k v : dict_get d k = Some v -> In k (map fst d).
Proof.
  induction d as [|[k' v'] d IH]; simpl; [discriminate|].
  destruct (String.eqb_spec k' k); [auto|]. intros H. right. auto.
Qed.

Lemma dict_get_in d k : In k (map fst d) -> exists v, dict_get d k = Some v.
Proof.
  induction d as [|[k' v'] d IH]; simpl; [tauto|].
  destruct (String.eqb_spec k' k); [eauto|]. intros [?|?]; [contradiction|auto].
Qed.

Definition dinv (d : dict) (ps : list leaf) : Prop :=
  NoDup (map fst d) /\ (forall k, In k (map fst d) <-> In k (map snd ps)) /\
  (forall k v, dict_get d k = Some v -> as_leaves (summands v) = Some (of_comp k ps)).

Lemma dinv_step d ps e c : dinv d ps -> dinv (dict_add d c (TLeaf e c)) (ps ++ [(e, c)]).
Proof.
  intros [Hnd [Hmem Hval]]. split; [|split].
  - rewrite keys_dict_add. destruct (mem c (map fst d)) eqn:Em; [exact Hnd|].
    apply (Permutation_NoDup (l := c :: map fst d)); [apply Permutation_cons_append|].
    constructor; [|exact Hnd]. intros Hin. apply mem_In in Hin. congruence.
  - intros k. rewrite map_app, in_app_iff, keys_dict_add. simpl.
    destruct (mem c (map fst d)) eqn:Em.
    + apply mem_In in Em. rewrite <- Hmem. split; [tauto|]. intros [?|[<-|[]]]; assumption.
    + rewrite in_app_iff, Hmem. simpl. tauto.
  - intros k v. rewrite dict_get_add, of_comp_app. simpl.
    destruct (String.eqb_spec k c) as [->|N].
    + rewrite String.eqb_refl. intros H. inversion H; subst; clear H.
      destruct (dict_get d c) as [v0|] eqn:Eg; simpl.
      * rewrite as_leaves_snoc, (Hval c v0 Eg). reflexivity.
      * rewrite of_comp_absent; [reflexivity|]. rewrite <- Hmem. intros Hin.
        apply dict_get_in in Hin as [v Hv]. congruence.
    + destruct (String.eqb_spec c k) as [->|_]; [congruence|]. rewrite app_nil_r. apply Hval.
Qed.

(* after the two loops over a block: the dictionary, and the loop variable `comp` holding a registered
   component as soon as there is one *)
Lemma bstep_fold ps last :
  let st := fold_left bstep ps ([], last) in
  dinv (fst st) ps /\ (ps <> [] -> exists c, snd st = Some c /\ In c (map snd ps)).
Proof.
  apply (fold_left_hist_invariant bstep (fun st ps => dinv (fst st) ps /\
                                (ps <> [] -> exists c, snd st = Some c /\ In c (map snd ps))) ) with (h := []).
  - intros st h [e c] [H _]. split; [apply dinv_step, H|]. intros _. exists c. split; [reflexivity|].
    rewrite map_app. apply in_or_app. right. left. reflexivity.
  - split; [|congruence]. split; [constructor|]. split; [reflexivity|discriminate].
Qed.

Lemma insert_s_perm x l : Permutation (insert_s x l) (x :: l).
Proof.
  induction l as [|y l IH]; simpl; [reflexivity|].
  destruct (String.leb x y); [reflexivity|]. rewrite IH. apply perm_swap.
Qed.

Lemma sort_s_perm l : Permutation (sort_s l) l.
Proof. induction l as [|x l IH]; simpl; [constructor|]. rewrite insert_s_perm, IH. reflexivity. Qed.

Lemma get_all_map d ks f : (forall k, In k ks -> dict_get d k = Some (f k)) -> get_all d ks = Some (map f ks).
Proof.
  induction ks as [|k ks IH]; simpl; intros H; [reflexivity|].
  rewrite (H k), IH; [reflexivity| |left; reflexivity]. intros k' Hk'. apply H. right. exact Hk'.
Qed.

Lemma block_expr_shape comps last b :
  exists ks f last', block_expr comps last b = (Some (maxexp (map f ks)), last') /\
    Permutation ks (active comps b) /\
    forall k, In k ks -> as_leaves (summands (f k)) = Some (of_comp k (pairs_of comps b)).
Proof.
  unfold block_expr. set (ps := pairs_of comps b).
  destruct (bstep_fold ps last) as [[Hnd [Hmem Hval]] Hlast].
  set (st := fold_left bstep ps ([], last)) in *. set (d := fst st) in *.
  set (f := fun k => match dict_get d k with Some v => v | None => TZero end).
  set (ks := sort_s (map fst d)).
  assert (Pk : Permutation ks (map fst d)) by apply sort_s_perm.
  assert (Hf : forall k, In k ks -> dict_get d k = Some (f k)).
  { intros k Hk. apply (Permutation_in _ Pk), dict_get_in in Hk as [v Hv]. unfold f. rewrite Hv. reflexivity. }
  exists ks, f, (snd st). split; [|split].
  - destruct ks as [|k [|k2 ks']] eqn:Eks.
    + reflexivity.
    + (* one key: it is the component the loop variable was left with *)
      assert (Hk : In k (map snd ps)) by (apply Hmem, (Permutation_in _ Pk); left; reflexivity).
      destruct Hlast as [c [Hc Hin]]; [intros E; rewrite E in Hk; exact Hk|].
      apply Hmem, (Permutation_in _ (Permutation_sym Pk)) in Hin. destruct Hin as [<-|[]].
      rewrite Hc, Hf by (left; reflexivity). reflexivity.
    + rewrite (get_all_map d _ f Hf). reflexivity.
  - rewrite Pk. apply NoDup_Permutation; [exact Hnd|apply nodup_s_NoDup|].
    intros k. unfold active. rewrite nodup_s_In. apply Hmem.
  - intros k Hk. apply Hval, Hf, Hk.
Qed.

Lemma remove1_sound {A} (eqb : A -> A -> bool) a l l' :
  remove1 eqb a l = Some l' -> exists b, eqb a b = true /\ Permutation l (b :: l').
Proof.
  revert l'. induction l as [|b l IH]; simpl; intros l' H; [discriminate|].
  destruct (eqb a b) eqn:E.
  - inversion H; subst. exists b. split; [exact E|reflexivity].
  - destruct (remove1 eqb a l) as [r|]; [|discriminate]. inversion H; subst.
    destruct (IH r eq_refl) as [b' [Hb Hp]]. exists b'. split; [exact Hb|].
    rewrite Hp. apply perm_swap.
Qed.

Lemma msetb_flat_map {A B} (eqb : A -> A -> bool) (f : A -> list B) :
  (forall a b, eqb a b = true -> Permutation (f a) (f b)) ->
  forall l1 l2, msetb eqb l1 l2 = true -> Permutation (flat_map f l1) (flat_map f l2).
Proof.
  intros Hf. induction l1 as [|a l1 IH]; simpl; intros l2 H.
  - destruct l2; [constructor|discriminate].
  - destruct (remove1 eqb a l2) as [r|] eqn:Er; [|discriminate].
    destruct (remove1_sound eqb a l2 r Er) as [b [Hb Hp]].
    rewrite (Permutation_flat_map f Hp). simpl. apply Permutation_app; [apply Hf, Hb|apply IH, H].
Qed.

Lemma msetb_map {A B} (eqb : A -> A -> bool) (f : A -> B) :
  (forall a b, eqb a b = true -> f a = f b) ->
  forall l1 l2, msetb eqb l1 l2 = true -> Permutation (map f l1) (map f l2).
Proof.
  intros Hf l1 l2 H. rewrite <- !flat_map_singleton. apply (msetb_flat_map eqb); [|exact H].
  intros a b E. rewrite (Hf a b E). reflexivity.
Qed.

Lemma leaf_eqb_eq p q : leaf_eqb p q = true <-> p = q.
Proof.
  destruct p as [a b], q as [c d]. unfold leaf_eqb; simpl. rewrite andb_true_iff, !String.eqb_eq.
  split; [intros [? ?]; congruence|intros H; inversion H; auto].
Qed.

Lemma mset_leaves_perm l1 l2 : msetb leaf_eqb l1 l2 = true -> Permutation l1 l2.
Proof.
  intros H. rewrite <- (map_id l1), <- (map_id l2). apply (msetb_map leaf_eqb); [|exact H].
  intros a b E. apply leaf_eqb_eq, E.
Qed.

(* No distributivity of add over max is assumed. *)
Section Alg.
  Context {T : Type}.
  Variable add mx : T -> T -> T.
  Variable zero : T.
  Hypothesis add_comm : forall a b, add a b = add b a.
  Hypothesis add_assoc : forall a b c, add a (add b c) = add (add a b) c.
  Hypothesis add_0_l : forall a, add zero a = a.
  Hypothesis mx_comm : forall a b, mx a b = mx b a.
  Hypothesis mx_assoc : forall a b c, mx a (mx b c) = mx (mx a b) c.
  Variable rho : string -> string -> T.

  Notation sum := (sum_list add zero).
  Notation ev := (eval add mx zero rho).
  Notation sl := (sum_leaves add zero rho).

  Lemma add_0_r a : add a zero = a.
  Proof. rewrite add_comm. apply add_0_l. Qed.

  Lemma sum_app l1 l2 : sum (l1 ++ l2) = add (sum l1) (sum l2).
  Proof.
    induction l1 as [|a l1 IH]; simpl; [symmetry; apply add_0_l|].
    rewrite IH. apply add_assoc.
  Qed.

  Lemma sum_perm l1 l2 : Permutation l1 l2 -> sum l1 = sum l2.
  Proof.
    induction 1; simpl; [reflexivity|congruence| |congruence].
    rewrite !add_assoc. f_equal. apply add_comm.
  Qed.

  Lemma sl_app l1 l2 : sl (l1 ++ l2) = add (sl l1) (sl l2).
  Proof. unfold sum_leaves. rewrite map_app. apply sum_app. Qed.

  Lemma sl_perm l1 l2 : Permutation l1 l2 -> sl l1 = sl l2.
  Proof. intros H. apply sum_perm, Permutation_map, H. Qed.

  Definition mlist (l : list T) : T := match l with [] => zero | x :: xs => maxl mx x xs end.

  Lemma maxl_shift ws a w : fold_left mx ws (mx a w) = mx a (fold_left mx ws w).
  Proof.
    revert a w. induction ws as [|u ws IH]; intros a w; simpl; [reflexivity|].
    rewrite <- mx_assoc. apply IH.
  Qed.

  Lemma mlist_app l1 l2 : l1 <> [] -> l2 <> [] -> mlist (l1 ++ l2) = mx (mlist l1) (mlist l2).
  Proof.
    intros H1 H2. destruct l1 as [|x xs]; [congruence|]. destruct l2 as [|y ys]; [congruence|].
    simpl. unfold maxl. rewrite fold_left_app. simpl. apply maxl_shift.
  Qed.

  Lemma mlist_cons x l : l <> [] -> mlist (x :: l) = mx x (mlist l).
  Proof. apply (mlist_app [x]). discriminate. Qed.

  Lemma mlist_perm l l' : Permutation l l' -> mlist l = mlist l'.
  Proof.
    induction 1 as [|x l l' Hp IH|x y l|l l' l'' H1 IH1 H2 IH2].
    - reflexivity.
    - destruct l as [|a l].
      + apply Permutation_nil in Hp. subst. reflexivity.
      + destruct l' as [|a' l']; [apply Permutation_sym, Permutation_nil in Hp; discriminate|].
        rewrite (mlist_cons x (a :: l)), (mlist_cons x (a' :: l')) by discriminate. f_equal. exact IH.
    - simpl. unfold maxl. simpl. rewrite (mx_comm y x). reflexivity.
    - congruence.
  Qed.

  Lemma eval_summands x : ev x = sum (map ev (summands x)).
  Proof.
    induction x; simpl; try (symmetry; apply add_0_r); try reflexivity.
    rewrite map_app, sum_app. congruence.
  Qed.

  Lemma maxargs_nonempty x : map ev (maxargs x) <> [].
  Proof.
    induction x; simpl; try discriminate.
    rewrite map_app. intros H. apply app_eq_nil in H as [H _]. contradiction.
  Qed.

  Lemma eval_maxargs x : ev x = mlist (map ev (maxargs x)).
  Proof.
    induction x; simpl; try reflexivity.
    rewrite map_app, mlist_app by apply maxargs_nonempty. congruence.
  Qed.

  Lemma eval_maxexp vs : ev (maxexp vs) = mlist (map ev vs).
  Proof.
    destruct vs as [|v vs]; [reflexivity|]. simpl. unfold maxl. revert v.
    induction vs as [|w vs IH]; intros v; simpl; [reflexivity|]. apply IH.
  Qed.

  Lemma as_leaves_sound l g : as_leaves l = Some g -> map ev l = map (rho_l rho) g /\ flat_map leaves l = g.
  Proof.
    revert g. induction l as [|x l IH]; simpl; intros g H.
    - inversion H. split; reflexivity.
    - destruct x; try discriminate. destruct (as_leaves l) as [g'|]; [|discriminate].
      inversion H; subst. destruct (IH g' eq_refl) as [I1 I2]. simpl. rewrite I1, I2. split; reflexivity.
  Qed.

  Lemma sum_of_leaves x g : as_leaves (summands x) = Some g -> ev x = sl g /\ leaves x = g.
  Proof.
    intros H. apply as_leaves_sound in H as [H1 H2]. rewrite eval_summands, leaves_summands, H1. split; [reflexivity|exact H2].
  Qed.

  Definition mgroup (gs : list (list leaf)) : T := mlist (map sl gs).
  Definition eval_shape (s : shape) : T := add (sl (fst s)) (sum (map mgroup (snd s))).
  Definition shape_leaves (s : shape) : list leaf := fst s ++ flat_map (@concat leaf) (snd s).

  Lemma eval_shape_loose g lo mg : eval_shape (g ++ lo, mg) = add (sl g) (eval_shape (lo, mg)).
  Proof. unfold eval_shape. simpl. rewrite sl_app, add_assoc. reflexivity. Qed.

  Lemma eval_shape_group lo gs mg : eval_shape (lo, gs :: mg) = add (mgroup gs) (eval_shape (lo, mg)).
  Proof. unfold eval_shape. simpl. rewrite !add_assoc. f_equal. apply add_comm. Qed.

  Lemma shape_leaves_loose g lo mg : shape_leaves (g ++ lo, mg) = g ++ shape_leaves (lo, mg).
  Proof. symmetry. apply app_assoc. Qed.

  Lemma shape_leaves_group lo gs mg : Permutation (shape_leaves (lo, gs :: mg)) (concat gs ++ shape_leaves (lo, mg)).
  Proof. apply Permutation_app_swap_app. Qed.

  Lemma map_opt_groups (args : list texp) gs :
    map_opt (fun a => as_leaves (summands a)) args = Some gs ->
    map ev args = map sl gs /\ flat_map leaves args = concat gs.
  Proof.
    revert gs. induction args as [|a args IH]; simpl; intros gs H.
    - inversion H. split; reflexivity.
    - destruct (as_leaves (summands a)) as [g|] eqn:Ea; [|discriminate].
      destruct (map_opt _ args) as [gs'|]; [|discriminate]. inversion H; subst.
      destruct (IH gs' eq_refl) as [I1 I2], (sum_of_leaves a g Ea) as [S1 S2]. simpl. split; congruence.
  Qed.

  Lemma shape_of_summands_sound l s :
    shape_of_summands l = Some s ->
    sum (map ev l) = eval_shape s /\ Permutation (flat_map leaves l) (shape_leaves s).
  Proof.
    revert s. induction l as [|x l IH]; cbn [shape_of_summands]; intros s H.
    - inversion H; subst. split; [symmetry; apply add_0_l|constructor].
    - destruct (shape_of_summands l) as [[lo mg]|]; [|discriminate].
      destruct (IH _ eq_refl) as [I1 I2]. cbn [map flat_map].
      change (sum (ev x :: map ev l)) with (add (ev x) (sum (map ev l))). rewrite I1, I2.
      destruct x; try discriminate.
      + inversion H; subst. change ((e, c) :: lo) with ([(e, c)] ++ lo). rewrite eval_shape_loose, shape_leaves_loose.
        split; [|reflexivity]. unfold sum_leaves. simpl. rewrite add_0_r. reflexivity.
      + destruct (map_opt _ (maxargs (TMax x1 x2))) as [gs|] eqn:Em; [|discriminate].
        inversion H; subst. apply map_opt_groups in Em as [M1 M2].
        rewrite eval_shape_group, shape_leaves_group, eval_maxargs, leaves_maxargs, M1, M2. split; reflexivity.
  Qed.

  Lemma shape_of_sound x s :
    shape_of x = Some s -> ev x = eval_shape s /\ Permutation (leaves x) (shape_leaves s).
  Proof. rewrite eval_summands, leaves_summands. apply shape_of_summands_sound. Qed.

  Lemma groups_eqb_sound G1 G2 :
    msetb (msetb leaf_eqb) G1 G2 = true -> mgroup G1 = mgroup G2 /\ Permutation (concat G1) (concat G2).
  Proof.
    intros H. split.
    - apply mlist_perm, (msetb_map (msetb leaf_eqb)); [|exact H]. intros a b E. apply sl_perm, mset_leaves_perm, E.
    - rewrite <- (map_id G1), <- (map_id G2), <- !flat_map_concat_map.
      apply (msetb_flat_map (msetb leaf_eqb)); [|exact H]. intros a b E. apply mset_leaves_perm, E.
  Qed.

  Lemma shape_eqb_sound s1 s2 :
    shape_eqb s1 s2 = true -> eval_shape s1 = eval_shape s2 /\ Permutation (shape_leaves s1) (shape_leaves s2).
  Proof.
    unfold shape_eqb. rewrite andb_true_iff. intros [H1 H2]. apply mset_leaves_perm in H1. split.
    - unfold eval_shape. rewrite (sl_perm _ _ H1). f_equal.
      apply sum_perm, (msetb_map (msetb (msetb leaf_eqb))); [|exact H2]. intros a b E. apply groups_eqb_sound, E.
    - apply Permutation_app; [exact H1|].
      apply (msetb_flat_map (msetb (msetb leaf_eqb))); [|exact H2]. intros a b E. apply groups_eqb_sound, E.
  Qed.

  Variable comps : string -> list string.
  Notation ct := (ctime add zero rho comps).
  Notation bt := (block_time add mx zero rho comps).
  Notation ru := (rollup add mx zero rho comps).

  Lemma rollup_cons b bs : ru (b :: bs) = add (bt b) (ru bs).
  Proof. reflexivity. Qed.

  Lemma block_time_mlist b : bt b = mlist (map (ct b) (active comps b)).
  Proof. unfold block_time. destruct (active comps b); reflexivity. Qed.

  Lemma block_groups b ks : Permutation ks (active comps b) ->
    mlist (map (ct b) ks) = bt b /\
    Permutation (flat_map (fun k => of_comp k (pairs_of comps b)) ks) (pairs_of comps b).
  Proof.
    intros P. split.
    - rewrite block_time_mlist. apply mlist_perm, Permutation_map, P.
    - rewrite (Permutation_flat_map _ P). apply groups_perm; [apply nodup_s_NoDup|].
      intros p Hp. apply nodup_s_In, in_map, Hp.
  Qed.

  (* what spec_shape does with the groups of one block, however many there are *)
  Lemma shape_push gs lo mg :
    let s : shape := match gs with
             | [] => (lo, mg)
             | [g] => (g ++ lo, mg)
             | g :: g2 :: r => (lo, (g :: g2 :: r) :: mg)
             end in
    eval_shape s = add (mgroup gs) (eval_shape (lo, mg)) /\
    Permutation (shape_leaves s) (concat gs ++ shape_leaves (lo, mg)).
  Proof.
    destruct gs as [|g [|g2 gs]]; cbv zeta.
    - split; [symmetry; apply add_0_l|reflexivity].
    - rewrite eval_shape_loose, shape_leaves_loose. simpl. rewrite app_nil_r. split; reflexivity.
    - split; [apply eval_shape_group|apply shape_leaves_group].
  Qed.

  Lemma spec_shape_sound blocks :
    eval_shape (spec_shape comps blocks) = ru blocks /\
    Permutation (shape_leaves (spec_shape comps blocks)) (all_pairs comps blocks).
  Proof.
    induction blocks as [|b bs [I1 I2]]; cbn [spec_shape].
    - split; [apply add_0_l|reflexivity].
    - destruct (spec_shape comps bs) as [lo mg].
      destruct (shape_push (groups_of comps b) lo mg) as [P1 P2], (block_groups b _ (Permutation_refl _)) as [G1 G2].
      rewrite P1, P2, I1, I2, rollup_cons, <- G1. unfold groups_of, mgroup.
      rewrite map_map, <- flat_map_concat_map, G2. split; reflexivity.
  Qed.

  Theorem time_okb_sound blocks x :
    time_okb comps blocks x = true ->
    ev x = ru blocks /\ Permutation (leaves x) (all_pairs comps blocks).
  Proof.
    unfold time_okb. destruct (shape_of x) as [s|] eqn:Es; [|discriminate]. intros H.
    apply shape_of_sound in Es as [E1 E2]. apply shape_eqb_sound in H as [H1 H2].
    destruct (spec_shape_sound blocks) as [S1 S2]. split.
    - congruence.
    - rewrite E2, H2. exact S2.
  Qed.

  Lemma block_expr_sound last b :
    exists x last', block_expr comps last b = (Some x, last') /\ ev x = bt b /\
                    Permutation (leaves x) (pairs_of comps b).
  Proof.
    destruct (block_expr_shape comps last b) as [ks [f [last' [E [P Hf]]]]].
    destruct (block_groups b ks P) as [G1 G2].
    exists (maxexp (map f ks)), last'. split; [exact E|]. split.
    - rewrite eval_maxexp, map_map, <- G1. f_equal. apply map_ext_in. intros k Hk. apply (sum_of_leaves _ _ (Hf k Hk)).
    - rewrite leaves_maxexp, flat_map_concat_map, map_map, <- flat_map_concat_map.
      rewrite (flat_map_ext_in _ (fun k => of_comp k (pairs_of comps b))); [exact G2|].
      intros k Hk. apply (sum_of_leaves _ _ (Hf k Hk)).
  Qed.

  Lemma build_time_from_sound blocks : forall t last,
    exists x, build_time_from comps (Some t) last blocks = Some x /\
      ev x = add (ev t) (ru blocks) /\ Permutation (leaves x) (leaves t ++ all_pairs comps blocks).
  Proof.
    induction blocks as [|b bs IH]; intros t last; cbn [build_time_from].
    - exists t. unfold rollup. simpl. rewrite add_0_r, app_nil_r. auto.
    - destruct (block_expr_sound last b) as [x [last' [Hb [Hev Hlv]]]]. rewrite Hb.
      destruct (IH (TAdd t x) last') as [y [Hy [Ey Ly]]]. exists y. split; [exact Hy|]. split.
      + rewrite Ey, rollup_cons. simpl. rewrite Hev, add_assoc. reflexivity.
      + rewrite Ly. simpl. rewrite Hlv, app_assoc. reflexivity.
  Qed.

  (* the code's expression: never raises for a non-empty block list, denotes the roll-up, and its leaves are
     exactly the registered pairs *)
  Theorem build_time_sem blocks :
    blocks <> [] ->
    exists x, build_time comps blocks = Some x /\ ev x = ru blocks /\
              Permutation (leaves x) (all_pairs comps blocks).
  Proof.
    destruct blocks as [|b bs]; [congruence|]. intros _. unfold build_time. cbn [build_time_from].
    destruct (block_expr_sound None b) as [x [last' [Hb [Hev Hlv]]]]. rewrite Hb.
    destruct (build_time_from_sound bs x last') as [y [Hy [Ey Ly]]]. exists y. split; [exact Hy|]. split.
    - rewrite Ey, Hev. reflexivity.
    - rewrite Ly, Hlv. reflexivity.
  Qed.
End Alg.

Lemma all_pairs_flat comps blocks :
  all_pairs comps blocks = flat_map (fun e => map (pair e) (comps e)) (concat blocks).
Proof.
  unfold all_pairs, pairs_of. induction blocks as [|b bs IH]; simpl; [reflexivity|].
  rewrite flat_map_app, IH. reflexivity.
Qed.

Lemma in_pairs (comps : string -> list string) es (e c : string) :
  In (e, c) (flat_map (fun e => map (pair e) (comps e)) es) <-> In e es /\ In c (comps e).
Proof.
  rewrite in_flat_map. split.
  - intros [e' [He Hin]]. apply in_map_iff in Hin as [c' [Hc Hin]]. inversion Hc; subst. auto.
  - intros [He Hc]. exists e. split; [exact He|]. apply in_map. exact Hc.
Qed.

Lemma NoDup_pairs (comps : string -> list string) es :
  NoDup es -> (forall e, NoDup (comps e)) -> NoDup (flat_map (fun e => map (pair e) (comps e)) es).
Proof.
  intros Hes Hc. apply NoDup_flat_map; [exact Hes| |].
  - intros e _. apply NoDup_map_inj_in; [|apply Hc]. intros x y _ _ [= ->]. reflexivity.
  - intros e e' p _ _ H H'. apply in_map_iff in H as [c [<- _]], H' as [c' [[= <- _] _]]. reflexivity.
Qed.

(* if every Einsum lies in one block and no component is registered twice for an Einsum, then each
   registered (Einsum, component) time is a leaf of the expression exactly once, and nothing else is *)
Theorem each_once_of_perm comps blocks x :
  Permutation (leaves x) (all_pairs comps blocks) ->
  NoDup (concat blocks) -> (forall e, NoDup (comps e)) ->
  NoDup (leaves x) /\ forall e c, In (e, c) (leaves x) <-> In e (concat blocks) /\ In c (comps e).
Proof.
  intros Hp Hb Hc. rewrite all_pairs_flat in Hp. split.
  - eapply Permutation_NoDup; [apply Permutation_sym; exact Hp|]. apply NoDup_pairs; assumption.
  - intros e c. rewrite <- in_pairs. split; apply Permutation_in; [exact Hp|apply Permutation_sym; exact Hp].
Qed.

(* without those two hypotheses: registrations counted with multiplicity *)
Theorem leaf_count_of_perm comps blocks x (dec : forall p q : leaf, {p = q} + {p <> q}) :
  Permutation (leaves x) (all_pairs comps blocks) ->
  forall p, count_occ dec (leaves x) p = count_occ dec (all_pairs comps blocks) p.
Proof. intros Hp p. apply Permutation_count_occ. exact Hp. Qed.

Definition maxplus {T} (add mx : T -> T -> T) (zero : T) : Prop :=
  (forall a b, add a b = add b a) /\ (forall a b c, add a (add b c) = add (add a b) c) /\
  (forall a, add zero a = a) /\
  (forall a b, mx a b = mx b a) /\ (forall a b c, mx a (mx b c) = mx (mx a b) c).

Theorem build_time_maxplus {T} (add mx : T -> T -> T) (zero : T) :
  maxplus add mx zero ->
  forall rho comps blocks, blocks <> [] ->
  exists x, build_time comps blocks = Some x /\
            eval add mx zero rho x = rollup add mx zero rho comps blocks /\
            Permutation (leaves x) (all_pairs comps blocks).
Proof. intros [H1 [H2 [H3 [H4 H5]]]]. exact (build_time_sem add mx zero H1 H2 H3 H4 H5). Qed.

Theorem validator_maxplus {T} (add mx : T -> T -> T) (zero : T) :
  maxplus add mx zero ->
  forall rho comps blocks x, time_okb comps blocks x = true ->
  eval add mx zero rho x = rollup add mx zero rho comps blocks /\
  Permutation (leaves x) (all_pairs comps blocks).
Proof. intros [H1 [H2 [H3 [H4 H5]]]]. exact (time_okb_sound add mx zero H1 H2 H3 H4 H5). Qed.

Theorem build_time_rollup {T} (add mx : T -> T -> T) (zero : T) :
  maxplus add mx zero ->
  forall rho comps blocks, blocks <> [] ->
  exists x, build_time comps blocks = Some x /\
            eval add mx zero rho x = rollup add mx zero rho comps blocks.
Proof.
  intros MP rho comps blocks Hne.
  destruct (build_time_maxplus add mx zero MP rho comps blocks Hne) as [x [Hx [He _]]]. eauto.
Qed.

Theorem validator_sound {T} (add mx : T -> T -> T) (zero : T) :
  maxplus add mx zero ->
  forall rho comps blocks x, time_okb comps blocks x = true ->
  eval add mx zero rho x = rollup add mx zero rho comps blocks.
Proof. intros MP rho comps blocks x H. apply (validator_maxplus add mx zero MP), H. Qed.

(* in the one-point structure every value statement is trivial: what remains of a soundness theorem is
   its statement about leaves *)
Lemma maxplus_unit : maxplus (fun _ _ : unit => tt) (fun _ _ => tt) tt.
Proof. repeat split; intros; try reflexivity. destruct a; reflexivity. Qed.

Theorem build_time_leaves comps blocks x :
  build_time comps blocks = Some x -> Permutation (leaves x) (all_pairs comps blocks).
Proof.
  intros Hx.
  destruct (build_time_maxplus _ _ _ maxplus_unit (fun _ _ => tt) comps blocks) as [y [Hy [_ Hp]]]; [|congruence].
  intros ->. discriminate Hx.
Qed.

Theorem build_time_each_once comps blocks x :
  build_time comps blocks = Some x -> NoDup (concat blocks) -> (forall e, NoDup (comps e)) ->
  NoDup (leaves x) /\ forall e c, In (e, c) (leaves x) <-> In e (concat blocks) /\ In c (comps e).
Proof. intros Hx. apply each_once_of_perm, build_time_leaves, Hx. Qed.

Theorem validator_each_once comps blocks x :
  time_okb comps blocks x = true -> NoDup (concat blocks) -> (forall e, NoDup (comps e)) ->
  NoDup (leaves x) /\ forall e c, In (e, c) (leaves x) <-> In e (concat blocks) /\ In c (comps e).
Proof.
  intros H. apply each_once_of_perm, (validator_maxplus _ _ _ maxplus_unit (fun _ _ => tt)), H.
Qed.

Lemma Qle_bool_false a b : Qle_bool a b = false -> (b <= a)%Q.
Proof.
  intros E. destruct (Qlt_le_dec a b) as [H|H]; [|exact H].
  apply Qlt_le_weak in H. apply Qle_bool_iff in H. congruence.
Qed.

Lemma Qcle_total (a b : Qc) : (a <= b \/ b <= a)%Qc.
Proof. destruct (Qle_bool a b) eqn:E; [left; apply Qle_bool_iff, E|right; apply Qle_bool_false, E]. Qed.

Lemma Qcmax_r (a b : Qc) : (a <= b)%Qc -> Qcmax a b = b.
Proof. intros H. unfold Qcmax. apply Qle_bool_iff in H. rewrite H. reflexivity. Qed.

Lemma Qcmax_l (a b : Qc) : (b <= a)%Qc -> Qcmax a b = a.
Proof.
  intros H. unfold Qcmax. destruct (Qle_bool a b) eqn:E; [|reflexivity].
  apply Qle_bool_iff in E. apply Qcle_antisym; assumption.
Qed.

Lemma Qcmax_comm a b : Qcmax a b = Qcmax b a.
Proof.
  destruct (Qcle_total a b) as [H|H].
  - rewrite (Qcmax_r a b H), (Qcmax_l b a H). reflexivity.
  - rewrite (Qcmax_l a b H), (Qcmax_r b a H). reflexivity.
Qed.

Lemma Qcmax_assoc a b c : Qcmax a (Qcmax b c) = Qcmax (Qcmax a b) c.
Proof.
  destruct (Qcle_total a b) as [Hab|Hba], (Qcle_total b c) as [Hbc|Hcb].
  - rewrite (Qcmax_r a b Hab), (Qcmax_r b c Hbc). apply Qcmax_r, (Qcle_trans _ b); assumption.
  - rewrite (Qcmax_r a b Hab), !(Qcmax_l b c Hcb). apply Qcmax_r, Hab.
  - rewrite (Qcmax_l a b Hba), (Qcmax_r b c Hbc). reflexivity.
  - rewrite (Qcmax_l a b Hba), (Qcmax_l b c Hcb), (Qcmax_l a b Hba). symmetry. apply Qcmax_l, (Qcle_trans _ b); assumption.
Qed.

Lemma Qcplus_0_l' a : (0 + a)%Qc = a.
Proof. apply Qcplus_0_l. Qed.

Lemma maxplus_Qc : maxplus Qcplus Qcmax 0%Qc.
Proof.
  repeat split; [apply Qcplus_comm|apply Qcplus_assoc|apply Qcplus_0_l|apply Qcmax_comm|apply Qcmax_assoc].
Qed.

Corollary build_time_rollup_Qc rho comps blocks :
  blocks <> [] ->
  exists x, build_time comps blocks = Some x /\
            eval Qcplus Qcmax 0%Qc rho x = rollup Qcplus Qcmax 0%Qc rho comps blocks.
Proof. apply build_time_rollup. exact maxplus_Qc. Qed.

Lemma maxplus_Z : maxplus Z.add Z.max 0%Z.
Proof. repeat split; intros; lia. Qed.

Lemma lookup_last_app {B} k (l1 l2 : list (string * B)) :
  lookup_last k (l1 ++ l2) = match lookup_last k l2 with Some r => Some r | None => lookup_last k l1 end.
Proof.
  induction l1 as [|[k' v] l1 IH]; simpl; [destruct (lookup_last k l2); reflexivity|].
  rewrite IH. destruct (lookup_last k l2); reflexivity.
Qed.

Lemma lookup_last_In {B} k (l : list (string * B)) v : lookup_last k l = Some v -> In (k, v) l.
Proof.
  induction l as [|[k' v'] l IH]; simpl; [discriminate|].
  destruct (lookup_last k l) as [r|]; [intros H; right; apply IH, H|].
  destruct (String.eqb_spec k' k) as [->|]; [|discriminate]. intros H. inversion H. left. reflexivity.
Qed.

Lemma lookup_last_None {B} k (l : list (string * B)) v : lookup_last k l = None -> ~ In (k, v) l.
Proof.
  induction l as [|[k' v'] l IH]; simpl; [tauto|].
  destruct (lookup_last k l); [discriminate|]. destruct (String.eqb_spec k' k); [discriminate|].
  intros _ [E|H]; [congruence|exact (IH eq_refl H)].
Qed.

Lemma lookup_last_unique {B} k (l : list (string * B)) v :
  In (k, v) l -> (forall v', In (k, v') l -> v' = v) -> lookup_last k l = Some v.
Proof.
  intros Hin Hu. destruct (lookup_last k l) as [v'|] eqn:E.
  - f_equal. apply Hu, lookup_last_In, E.
  - destruct (lookup_last_None k l v E Hin).
Qed.

Lemma lookup_first_In {B} k (l : list (string * B)) v : lookup_first k l = Some v -> In (k, v) l.
Proof.
  induction l as [|[k' v'] l IH]; simpl; [discriminate|].
  destruct (String.eqb_spec k' k) as [->|]; intros H; [inversion H; left; reflexivity|right; apply IH, H].
Qed.

Lemma count_decl_app c l1 l2 : count_decl c (l1 ++ l2) = (count_decl c l1 + count_decl c l2)%nat.
Proof. induction l1 as [|[k v] l1 IH]; simpl; [reflexivity|]. rewrite IH. lia. Qed.

Lemma count_decl_In c l v : In (c, v) l -> count_decl c l <> 0%nat.
Proof.
  induction l as [|[k w] l IH]; simpl; [tauto|]. intros [E|H].
  - inversion E; subst. rewrite String.eqb_refl. discriminate.
  - specialize (IH H). lia.
Qed.

Lemma count_decl_one c l v v' : count_decl c l = 1%nat -> In (c, v) l -> In (c, v') l -> v = v'.
Proof.
  induction l as [|[k w] l IH]; simpl; [tauto|]. destruct (String.eqb_spec k c) as [->|N].
  - intros Hc H1 H2. assert (Hz : count_decl c l = 0%nat) by lia.
    destruct H1 as [E1|H1]; [|destruct (count_decl_In _ _ _ H1 Hz)].
    destruct H2 as [E2|H2]; [congruence|destruct (count_decl_In _ _ _ H2 Hz)].
  - intros Hc [E|H1]; [congruence|]. intros [E|H2]; [congruence|]. exact (IH Hc H1 H2).
Qed.

(* a component name declared once in the whole architecture: the code's single dictionary gives the
   instance count (class, bandwidth) of the Einsum's own configuration tree *)
Theorem instances_unique a cfg c ci :
  spec_cinfo a cfg c = Some ci -> count_decl c (built a) = 1%nat -> code_cinfo a c = Some ci.
Proof.
  unfold spec_cinfo, code_cinfo. destruct (lookup_first cfg a) as [lv|] eqn:El; [|discriminate].
  intros Hs Hc. assert (Hin : In (c, ci) (built a)).
  { apply in_flat_map. exists (cfg, lv). split; [apply lookup_first_In, El|apply lookup_last_In, Hs]. }
  apply lookup_last_unique; [exact Hin|]. intros v' Hv'. exact (count_decl_one c _ _ _ Hc Hv' Hin).
Qed.

Corollary divisor_unique a cfg c :
  spec_cinfo a cfg c <> None -> count_decl c (built a) = 1%nat -> code_divisor a cfg c = spec_divisor a cfg c.
Proof.
  intros Hs Hc. unfold code_divisor, spec_divisor. destruct (spec_cinfo a cfg c) as [ci|] eqn:E; [|congruence].
  rewrite (instances_unique a cfg c ci E Hc). reflexivity.
Qed.

(* "divides its operation or bit count by clock frequency (or bandwidth) times the instance count" *)
Theorem divisor_form a cfg c n cls bw :
  spec_cinfo a cfg c = Some (n, cls, bw) ->
  spec_divisor a cfg c = Some (if is_memory cls then bw * n else cfg_freq a cfg * n)%Z.
Proof. intros H. unfold spec_divisor. rewrite H. reflexivity. Qed.

(* the instance count of a component is the N + 1 of the level NAME[0..N] that declares it *)
Theorem spec_cinfo_level raw f locals subs d :
  In d locals -> (forall d', In d' locals -> c_name d' = c_name d -> d' = d) ->
  (forall s, In s subs -> count_decl (c_name d) (built_level s) = 0%nat) ->
  lookup_last (c_name d) (built_level (Level raw f locals subs)) =
  Some (match parse_level raw with Some (_, n) => n | None => 0%Z end, c_class d, c_bw d).
Proof.
  intros Hin Huniq Hsubs. cbn [built_level]. apply lookup_last_unique.
  - apply in_or_app. left. apply (in_map (fun c => (c_name c, (_, c_class c, c_bw c)))), Hin.
  - intros v' Hv'. apply in_app_or in Hv' as [Hv'|Hv'].
    + apply in_map_iff in Hv' as [d' [E Hd']]. inversion E as [[En Ev]]. rewrite (Huniq d' Hd' En). reflexivity.
    + apply in_flat_map in Hv' as [s [Hs Hv']]. destruct (count_decl_In _ _ _ Hv' (Hsubs s Hs)).
Qed.

(* Hardware.components (teaal/ir/hardware.py) is ONE dictionary for all configurations: a name shared by
   two configurations takes the instance count / bandwidth of the configuration built last (finding F14) *)
Definition f14_arch : arch :=
  [("P1", Level "System" 1000 [mkC "Mem" "dram" 512]
            [Level "PE[0..3]" 0 [mkC "Buf" "buffet" 0; mkC "Mul" "compute" 0] []]);
   ("P2", Level "System" 7 [mkC "Mem" "dram" 4096]
            [Level "PE[0..7]" 0 [mkC "Buf" "buffet" 0; mkC "Mul" "compute" 0] []])]%string.

Theorem shared_name_divisor_refuted :
  exists a cfg c1 c2,
    spec_divisor a cfg c1 = Some 4000%Z /\ code_divisor a cfg c1 = Some 8000%Z /\
    spec_divisor a cfg c2 = Some 512%Z /\ code_divisor a cfg c2 = Some 4096%Z.
Proof. exists f14_arch, "P1"%string, "Mul"%string, "Mem"%string. vm_compute. repeat split. Qed.

Fixpoint all_s (p : ascii -> bool) (s : string) : bool :=
  match s with
  | EmptyString => true
  | String a s' => p a && all_s p s'
  end.

Definition alnum_ (c : ascii) : bool := is_alpha_ c || is_digit c.
Definition cname (s : string) : Prop :=
  exists a r, s = String a r /\ is_alpha_ a = true /\ all_s alnum_ r = true.

Lemma cname_all name : cname name -> all_s alnum_ name = true /\ name <> EmptyString.
Proof.
  intros [a [r [-> [Ha Hr]]]]. simpl. unfold alnum_ at 1. rewrite Ha, Hr. split; [reflexivity|discriminate].
Qed.

Lemma alnum_not_ws a : alnum_ a = true -> is_ws a = false.
Proof.
  intros H. destruct (is_ws a) eqn:E; [|reflexivity]. unfold is_ws in E.
  apply orb_true_iff in E as [E|E]; apply Ascii.eqb_eq in E; subst a; discriminate H.
Qed.

Lemma digit_not_ws a : is_digit a = true -> is_ws a = false.
Proof. intros H. apply alnum_not_ws. unfold alnum_. rewrite H. apply orb_true_r. Qed.

Lemma span_all p x r :
  all_s p x = true -> match r with String a _ => p a = false | EmptyString => True end ->
  span p (x ++ r)%string = (x, r).
Proof.
  intros Hx Hr. induction x as [|a x IH]; simpl in *.
  - destruct r as [|b r]; [reflexivity|]. simpl. rewrite Hr. reflexivity.
  - apply andb_true_iff in Hx as [Ha Hx]. rewrite Ha, (IH Hx). reflexivity.
Qed.

Lemma skip_ws_all p x r :
  (forall a, p a = true -> is_ws a = false) -> all_s p x = true -> x <> EmptyString ->
  skip_ws (x ++ r)%string = (x ++ r)%string.
Proof.
  intros Hp Hx Hne. destruct x as [|a x]; [congruence|]. simpl in *.
  apply andb_true_iff in Hx as [Ha _]. rewrite (Hp a Ha). reflexivity.
Qed.

Lemma append_nil_r s : (s ++ "")%string = s.
Proof. induction s; simpl; congruence. Qed.

(* the grammar of teaal/parse/level.py: NAME[0..N] declares N + 1 instances, NAME one *)
Theorem parse_level_multiple name ds :
  cname name -> all_s is_digit ds = true -> ds <> EmptyString ->
  parse_level (name ++ "[0.." ++ ds ++ "]")%string = Some (name, (digits_val ds 0 + 1)%Z).
Proof.
  intros Hn Hd Hne. destruct (cname_all name Hn) as [Ha Hne'].
  unfold parse_level. cbv zeta.
  rewrite (skip_ws_all alnum_ name) by (assumption || exact alnum_not_ws).
  rewrite (span_all alnum_ name) by (assumption || reflexivity).
  destruct Hn as [a [r [-> [Ha' _]]]]. cbn [append]. rewrite Ha'. simpl.
  rewrite (skip_ws_all is_digit ds) by (assumption || exact digit_not_ws).
  rewrite (span_all is_digit ds) by (assumption || reflexivity).
  destruct ds; [congruence|]. reflexivity.
Qed.

Theorem parse_level_single name : cname name -> parse_level name = Some (name, 1%Z).
Proof.
  intros Hn. destruct (cname_all name Hn) as [Ha Hne]. rewrite <- (append_nil_r name) at 1.
  unfold parse_level. cbv zeta.
  rewrite (skip_ws_all alnum_ name) by (assumption || exact alnum_not_ws).
  rewrite (span_all alnum_ name) by (assumption || exact I).
  destruct Hn as [a [r [-> [Ha' _]]]]. cbn [append]. rewrite Ha'. reflexivity.
Qed.

Open Scope string_scope.
Open Scope list_scope.
(* the registrations of tests/integration/gamma.yaml as compiled by the real code *)
Definition gamma_comps (e : string) : list string :=
  if String.eqb e "T" then ["MainMemory"; "Intersect"]
  else if String.eqb e "Z" then ["MainMemory"; "HighRadixMerger"; "FPMul"; "FPAdd"] else []%list.

Example gamma_build :
  build_time gamma_comps [["T"; "Z"]]%string =
  Some (TMax (TMax (TMax (TMax (TLeaf "Z" "FPAdd") (TLeaf "Z" "FPMul")) (TLeaf "Z" "HighRadixMerger"))
                   (TLeaf "T" "Intersect"))
             (TAdd (TLeaf "T" "MainMemory") (TLeaf "Z" "MainMemory")))%string.
Proof. vm_compute. reflexivity. Qed.

(* a legal rewrite of the same expression (arguments commuted, max nested differently) is accepted *)
Example gamma_rewrite_accepted :
  time_okb gamma_comps [["T"; "Z"]]%string
    (TMax (TAdd (TLeaf "Z" "MainMemory") (TLeaf "T" "MainMemory"))
          (TMax (TLeaf "T" "Intersect")
                (TMax (TLeaf "Z" "HighRadixMerger") (TMax (TLeaf "Z" "FPMul") (TLeaf "Z" "FPAdd")))))%string = true.
Proof. vm_compute. reflexivity. Qed.

(* dropping a registered time (here that of T's Intersect) is rejected *)
Example gamma_dropped_rejected :
  time_okb gamma_comps [["T"; "Z"]]%string
    (TMax (TMax (TMax (TLeaf "Z" "FPAdd") (TLeaf "Z" "FPMul")) (TLeaf "Z" "HighRadixMerger"))
          (TAdd (TLeaf "T" "MainMemory") (TLeaf "Z" "MainMemory")))%string = false.
Proof. vm_compute. reflexivity. Qed.

Example outerspace_two_blocks :
  let comps e := if String.eqb e "T0" then ["MainMemory"; "FPMul"]
                 else if String.eqb e "T1" then ["MainMemory"]
                 else if String.eqb e "Z" then ["MainMemory"; "SortHW"; "FPAdd"] else []%list in
  exists x, build_time comps [["T0"]; ["T1"; "Z"]]%string = Some x /\
            time_okb comps [["T0"]; ["T1"; "Z"]]%string x = true /\
            NoDup (concat [["T0"]; ["T1"; "Z"]]%string) /\ (forall e, NoDup (comps e)).
Proof.
  eexists. split; [vm_compute; reflexivity|]. split; [vm_compute; reflexivity|]. split.
  - repeat constructor; simpl; intuition discriminate.
  - intros e. destruct (String.eqb e "T0"); [|destruct (String.eqb e "T1"); [|destruct (String.eqb e "Z")]];
      repeat constructor; simpl; intuition discriminate.
Qed.

Example level_names :
  parse_level "PE[0..127]" = Some ("PE", 128%Z) /\ parse_level "System" = Some ("System", 1%Z) /\
  parse_level " PE [0.. 7 ] " = Some ("PE", 8%Z) /\ parse_level "PE[0 ..7]" = None /\ parse_level "PE[1..7]" = None.
Proof. vm_compute. repeat split. Qed.

Example cname_PE : cname "PE".
Proof. exists "P"%char, "E"%string. repeat split. Qed.
