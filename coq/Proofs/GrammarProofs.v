(* For each of the five grammars of Model/Grammar.v:
     X_parse_print : wf a -> blanks ws -> parse_X (print_X a ws) = Some a
     X_parse_sound : parse_X s = Some a -> wf a /\ exists ws, blanks ws /\ length ws = S (length (toks_X a)) /\ s = print_X a ws
   (X = eq, dir, rt, st, lv), from the tokenizer theorems of LexProofs.v and token-level
   soundness/completeness of the recursive-descent parsers. *)
From Coq Require Import String Ascii List Bool ZArith Lia.
Require Import TV.Model.Lex TV.Model.Show TV.Model.Grammar TV.Proofs.LexProofs.
Import ListNotations.
Open Scope string_scope.
Open Scope list_scope.

Lemma join_cons sep (x y : list token) l : join sep (x :: y :: l) = x ++ sep :: join sep (y :: l).
Proof. reflexivity. Qed.

Lemma join_head sep (x : list token) l r : exists r', join sep (x :: l) ++ r = x ++ r'.
Proof. destruct l; [now exists r|]. rewrite join_cons, <- app_assoc. eauto. Qed.

Lemma join_length sep (xs : list (list token)) : Forall (fun x => x <> []) xs -> List.length xs <= List.length (join sep xs).
Proof.
  induction 1 as [|x xs Hx _ IH]; [reflexivity|].
  destruct x; [congruence|]. destruct xs; [simpl; lia|].
  rewrite join_cons, app_length. simpl List.length in *. lia.
Qed.

Lemma forallb_join (f : token -> bool) sep xs : f sep = true -> forallb f (join sep xs) = forallb (forallb f) xs.
Proof.
  intros Hs. induction xs as [|x xs IH]; [reflexivity|].
  destruct xs as [|y xs].
  - simpl. now rewrite andb_true_r.
  - rewrite join_cons, forallb_app. cbn [forallb] in *. rewrite Hs, IH. reflexivity.
Qed.

Definition not_head (y : sym) (r : list token) : bool :=
  match r with TSym y' :: _ => negb (sym_eqb y' y) | _ => true end.

Lemma not_head_false y r : not_head y r = false -> exists r', r = TSym y :: r'.
Proof.
  destruct r as [|[| | | | |y'] r]; try discriminate. simpl. intros H.
  apply negb_false_iff, sym_eqb_eq in H. subst y'. eauto.
Qed.

(* [sepfree] from the parts: nothing glues to a safe follower, a safe leader glues to nothing *)
Definition safe_follower (t : token) : bool := negb (starts_word t) && negb (tok_eqb t (TSym SLPar)).
Definition head_safe (ts : list token) : bool := match ts with [] => true | t :: _ => safe_follower t end.
Definition safe_leader (t : token) : bool := match t with TName _ | TNum _ | TDotW _ => false | _ => true end.

Lemma glue_safe t1 t2 : safe_follower t2 = true -> glue_bad t1 t2 = false.
Proof.
  unfold safe_follower. intros H. apply andb_prop in H. destruct H as [H1 H2].
  apply negb_true_iff in H1, H2. destruct t1; simpl; auto. now rewrite H1, H2.
Qed.

Lemma sepfree_safe_leader t ts : safe_leader t = true -> sepfree (t :: ts) = sepfree ts.
Proof. rewrite sepfree_cons. destruct ts; [reflexivity|]. destruct t; simpl; try discriminate; auto. Qed.

Lemma sepfree_app a b : sepfree a = true -> sepfree b = true -> head_safe b = true -> sepfree (a ++ b) = true.
Proof.
  induction a as [|t a IH]; intros Ha Hb Hh; [exact Hb|].
  destruct a as [|t2 a].
  - simpl app. rewrite sepfree_cons. destruct b as [|t3 b]; [reflexivity|]. simpl in Hh.
    rewrite (glue_safe t _ Hh). exact Hb.
  - rewrite sepfree_cons in Ha. apply andb_prop in Ha. destruct Ha as [Hg Ha].
    simpl app. rewrite sepfree_cons. rewrite Hg. simpl andb. apply (IH Ha Hb Hh).
Qed.

(* what lex_render asks of a token list *)
Definition good (m : lmode) (ts : list token) : bool := forallb (tok_ok m) ts && sepfree ts.

Lemma good_app m a b : good m a = true -> good m b = true -> head_safe b = true -> good m (a ++ b) = true.
Proof.
  unfold good. intros Ha Hb Hh. apply andb_prop in Ha, Hb. rewrite forallb_app, sepfree_app; try tauto.
  now rewrite (proj1 Ha), (proj1 Hb).
Qed.

Lemma good_one m t : tok_ok m t = true -> good m [t] = true.
Proof. unfold good. simpl. now intros ->. Qed.

Lemma good_cons m t b : tok_ok m t = true -> safe_leader t = true -> good m b = true -> good m (t :: b) = true.
Proof. unfold good. intros Ht Hn Hb. rewrite sepfree_safe_leader by exact Hn. simpl. now rewrite Ht. Qed.

Lemma good_join {A} m y (pr : A -> list token) (wfA : A -> bool) l :
  tok_ok m (TSym y) = true -> safe_follower (TSym y) = true -> (forall a, wfA a = true -> good m (pr a) = true) ->
  forallb wfA l = true -> good m (join (TSym y) (map pr l)) = true.
Proof.
  intros Hy Hs Hpr. induction l as [|a l IH]; [reflexivity|]. cbn [forallb]. intros H.
  apply andb_prop in H. destruct H as [Ha Hl].
  destruct l as [|b l]; [now apply Hpr|]. cbn [map] in *. rewrite join_cons.
  apply good_app; [now apply Hpr| |exact Hs]. apply good_cons; auto.
Qed.

Definition okp (ts : list token) : bool := forallb (tok_ok MPlain) ts.
Lemma okp_tail t r : okp (t :: r) = true -> okp r = true.
Proof. unfold okp. simpl. intros H. apply andb_prop in H. tauto. Qed.
Lemma okp_app a b : okp (a ++ b) = okp a && okp b.
Proof. apply forallb_app. Qed.

Definition sound {A} (p : list token -> option (A * list token)) (pr : A -> list token) (wf : A -> bool) : Prop :=
  forall ts a r, okp ts = true -> p ts = Some (a, r) -> ts = pr a ++ r /\ wf a = true /\ okp r = true.

Definition complete {A} (p : list token -> option (A * list token)) (pr : A -> list token) (wf : A -> bool)
    (fol : list token -> bool) : Prop :=
  forall a r, wf a = true -> fol r = true -> p (pr a ++ r) = Some (a, r).

Section SepProofs.
  Context {A : Type}.
  Variable p : list token -> option (A * list token).
  Variable pr : A -> list token.
  Variable sep : token.
  Variable cont : list token -> bool.
  Variable wfA : A -> bool.

  Lemma p_sep_aux_sound fuel : sound p pr wfA ->
    sound (p_sep_aux p sep cont fuel) (fun l => join sep (map pr l)) (fun l => nonempty l && forallb wfA l).
  Proof.
    intros Hp. induction fuel as [|f fuel IH]; intros ts l r Hok H; [discriminate|].
    simpl in H. destruct (p ts) as [[a r0]|] eqn:E; [|discriminate].
    destruct (Hp _ _ _ Hok E) as (-> & Hwf & Hok0).
    destruct r0 as [|t r1]; [|destruct (tok_eqb t sep && cont r1) eqn:Hc; cbv iota in H].
    1,3: injection H as <- <-; simpl; rewrite Hwf; auto.
    apply andb_prop in Hc. destruct Hc as [Ht _]. apply tok_eqb_eq in Ht. subst t.
    destruct (p_sep_aux p sep cont fuel r1) as [[l' r']|] eqn:Hrec; [|discriminate]. injection H as <- <-.
    destruct (IH _ _ _ (okp_tail _ _ Hok0) Hrec) as (-> & Hwf' & Hok').
    destruct l' as [|b l']; [discriminate|]. cbn [map]. rewrite join_cons, <- app_assoc.
    simpl in Hwf' |- *. rewrite Hwf. auto.
  Qed.

  Lemma p_sep_sound : sound p pr wfA ->
    sound (p_sep p sep cont) (fun l => join sep (map pr l)) (fun l => nonempty l && forallb wfA l).
  Proof. intros Hp ts. apply p_sep_aux_sound, Hp. Qed.

  Variable fol : list token -> bool.
  Hypothesis p_complete : complete p pr wfA fol.
  Hypothesis fol_sep : forall r, fol (sep :: r) = true.
  Hypothesis cont_pr : forall a r, wfA a = true -> cont (pr a ++ r) = true.
  Hypothesis pr_nonempty : forall a, wfA a = true -> pr a <> [].

  Definition stop (r : list token) : bool :=
    match r with [] => true | t :: r' => negb (tok_eqb t sep && cont r') end.

  Lemma p_sep_aux_complete : forall l r fuel, nonempty l && forallb wfA l = true -> fol r = true -> stop r = true ->
    List.length l <= List.length fuel -> p_sep_aux p sep cont fuel (join sep (map pr l) ++ r) = Some (l, r).
  Proof.
    induction l as [|a l IH]; intros r fuel Hwf Hf Hs Hlen; [discriminate|].
    simpl in Hwf. apply andb_prop in Hwf. destruct Hwf as [Ha Hl].
    destruct fuel as [|f fuel]; [simpl in Hlen; lia|].
    destruct l as [|b l].
    - simpl. rewrite (p_complete _ _ Ha Hf). destruct r as [|t r']; [reflexivity|].
      simpl in Hs. apply negb_true_iff in Hs. now rewrite Hs.
    - cbn [map] in IH |- *. rewrite join_cons, <- app_assoc.
      cbn [p_sep_aux app]. rewrite (p_complete _ _ Ha (fol_sep _)), tok_eqb_refl.
      destruct (join_head sep (pr b) (map pr l) r) as [r' Hr'].
      rewrite Hr', cont_pr, <- Hr'; [|simpl in Hl; apply andb_prop in Hl; tauto].
      rewrite (IH r fuel); auto. simpl in *. lia.
  Qed.

  Lemma p_sep_complete l r : nonempty l && forallb wfA l = true -> fol r = true -> stop r = true ->
    p_sep p sep cont (join sep (map pr l) ++ r) = Some (l, r).
  Proof.
    intros Hwf Hf Hs. apply p_sep_aux_complete; auto.
    apply andb_prop in Hwf. destruct Hwf as [_ Hwf]. rewrite forallb_forall in Hwf.
    rewrite app_length, <- (map_length pr l) at 1. apply Nat.le_trans with (2 := Nat.le_add_r _ _).
    apply join_length, Forall_forall. intros x Hx. apply in_map_iff in Hx. destruct Hx as (a & <- & Ha). auto.
  Qed.
End SepProofs.
Arguments p_sep_sound {A p pr sep cont wfA}.

Lemma stop_always sep r : not_head sep r = true -> stop (TSym sep) always r = true.
Proof.
  destruct r as [|t r]; [reflexivity|]. simpl. unfold always. rewrite andb_true_r.
  destruct t; simpl; auto.
Qed.

(* inversion of a flat parser: destruct the variables that H's matches look at, one after the other, until only
   the branches that return a result are left *)
Ltac crunch H := repeat (first [ progress (cbv iota beta in H) | discriminate H |
   match type of H with
   | context [match ?x with _ => _ end] => is_var x; destruct x
   end ]).

Ltac bsplit := repeat match goal with
  | H : _ && _ = true |- _ => apply andb_prop in H; destruct H
  | |- _ && _ = true => apply andb_true_intro; split
  end.

Lemma p_ranks_open r : not_head SRBrack r = true ->
  p_ranks (TSym SLBrack :: r) =
  match p_sep p_iexpr (TSym SComma) always r with Some (l, TSym SRBrack :: r') => Some (l, r') | _ => None end.
Proof. destruct r as [|[| | | | |[]] r]; try reflexivity. discriminate. Qed.

Lemma p_factor_var x r : not_head SLBrack r = true -> p_factor (TName x :: r) = Some (FVar x, r).
Proof. destruct r as [|[| | | | |[]] r]; try reflexivity. discriminate. Qed.

Definition starts_kw (ts : list token) : bool := match ts with TKw _ :: _ => true | _ => false end.
Lemma p_term_nokw ts : starts_kw ts = false ->
  p_term ts = match p_sep p_factor (TSym SStar) always ts with Some (fs, r) => Some (TTimes fs, r) | None => None end.
Proof. destruct ts as [|[] ts]; try reflexivity. discriminate. Qed.

Lemma p_iterm_sound : sound p_iterm toks_iterm wf_iterm.
Proof.
  intros ts t r Hok H. unfold p_iterm in H.
  crunch H; injection H as <- <-; simpl in Hok; repeat (apply andb_prop in Hok; destruct Hok as [? Hok]);
    simpl; auto using andb_true_intro.
Qed.

Lemma p_iexpr_sound : sound p_iexpr toks_iexpr wf_iexpr.
Proof. exact (p_sep_sound p_iterm_sound). Qed.

Lemma p_ranks_sound : sound p_ranks toks_ranks wf_ranks.
Proof.
  intros ts rs r Hok H. destruct ts as [|[| | | | |[]] r0]; try discriminate.
  apply okp_tail in Hok. destruct (not_head SRBrack r0) eqn:Hh.
  - rewrite p_ranks_open in H by exact Hh.
    destruct (p_sep p_iexpr (TSym SComma) always r0) as [[l r1]|] eqn:E; [|discriminate].
    destruct (p_sep_sound p_iexpr_sound _ _ _ Hok E) as (-> & Hwf & Hr).
    destruct r1 as [|[| | | | |[]] r1]; try discriminate. injection H as <- <-.
    apply andb_prop in Hwf. apply okp_tail in Hr. unfold toks_ranks. simpl. rewrite <- app_assoc. tauto.
  - apply not_head_false in Hh. destruct Hh as [r1 ->]. injection H as <- <-. apply okp_tail in Hok. auto.
Qed.

Lemma p_factor_sound : sound p_factor toks_factor wf_factor.
Proof.
  intros ts f r Hok H. destruct ts as [|[x| | | | |] r0]; try discriminate.
  simpl in Hok. apply andb_prop in Hok. destruct Hok as [Hx Hok]. destruct (not_head SLBrack r0) eqn:Hh.
  - rewrite p_factor_var in H by exact Hh. injection H as <- <-. auto.
  - apply not_head_false in Hh. destruct Hh as [r1 ->]. cbn [p_factor] in H.
    destruct (p_ranks (TSym SLBrack :: r1)) as [[rs r']|] eqn:E; [|discriminate]. injection H as <- <-.
    destruct (p_ranks_sound _ _ _ Hok E) as (E' & Hwf & Hr). simpl. now rewrite E', Hx.
Qed.

Lemma p_term_sound : sound p_term toks_term wf_term.
Proof.
  intros ts t r Hok H. destruct (starts_kw ts) eqn:Hk.
  - destruct ts as [|[| |k| | |] r0]; try discriminate. cbn [p_term] in H.
    destruct (String.eqb_spec k "take"); [subst k|discriminate].
    destruct (p_sep p_factor (TSym SComma) cont_take r0) as [[fs r1]|] eqn:E; [|discriminate].
    destruct (p_sep_sound p_factor_sound _ _ _ (okp_tail _ _ Hok) E) as (-> & Hwf & Hr).
    crunch H. injection H as <- <-.
    simpl in Hr. apply andb_prop in Hr. destruct Hr as [Hd Hr].
    simpl. rewrite <- app_assoc, Hwf. auto.
  - rewrite p_term_nokw in H by exact Hk.
    destruct (p_sep p_factor (TSym SStar) always ts) as [[fs r1]|] eqn:E; [|discriminate]. injection H as <- <-.
    exact (p_sep_sound p_factor_sound _ _ _ Hok E).
Qed.

Lemma p_einsum_sound ts e : okp ts = true -> p_einsum ts = Some e -> ts = toks_einsum e /\ wf_einsum e = true.
Proof.
  intros Hok H. destruct ts as [|[z| | | | |] r0]; try discriminate. cbn [p_einsum] in H.
  simpl in Hok. apply andb_prop in Hok. destruct Hok as [Hz Hok].
  destruct (p_ranks r0) as [[rs r1]|] eqn:E1; [|discriminate].
  destruct (p_ranks_sound _ _ _ Hok E1) as (-> & Hrs & Hr).
  destruct r1 as [|[| | | | |[]] r1]; try discriminate.
  destruct (p_sep p_term (TSym SPlus) always r1) as [[tms [|]]|] eqn:E2; try discriminate. injection H as <-.
  destruct (p_sep_sound p_term_sound _ _ _ (okp_tail _ _ Hr) E2) as (-> & Htms & _).
  unfold wf_einsum, toks_einsum. simpl. now rewrite app_nil_r, Hz, Hrs, <- andb_assoc, Htms.
Qed.

Lemma p_iterm_complete t r : p_iterm (toks_iterm t ++ r) = Some (t, r).
Proof. destruct t as [x|[] ds x]; reflexivity. Qed.

Lemma toks_iterm_nonempty t : toks_iterm t <> [].
Proof. destruct t as [x|[] ds x]; discriminate. Qed.

Lemma p_iexpr_complete : complete p_iexpr toks_iexpr wf_iexpr (not_head SPlus).
Proof.
  intros e r Hwf Hr.
  apply (p_sep_complete p_iterm toks_iterm (TSym SPlus) always wf_iterm always); auto using stop_always.
  - intros t r' _ _. apply p_iterm_complete.
  - intros. apply toks_iterm_nonempty.
Qed.

Definition starts_iterm (ts : list token) : bool :=
  match ts with TName _ :: _ | TNum _ :: _ | TSym SMinus :: _ => true | _ => false end.
Lemma toks_iexpr_starts e r : wf_iexpr e = true -> starts_iterm (toks_iexpr e ++ r) = true.
Proof.
  destruct e as [|t e]; [discriminate|]. intros _. unfold toks_iexpr. cbn [map].
  destruct (join_head (TSym SPlus) (toks_iterm t) (map toks_iterm e) r) as [r' ->].
  destruct t as [x|[] ds x]; reflexivity.
Qed.
Lemma toks_iexpr_nonempty e : wf_iexpr e = true -> toks_iexpr e <> [].
Proof.
  intros H E. pose proof (toks_iexpr_starts e [] H) as S. rewrite app_nil_r, E in S. discriminate.
Qed.

Lemma p_ranks_complete : complete p_ranks toks_ranks wf_ranks always.
Proof.
  intros rs r Hwf _. destruct rs as [|e rs]; [reflexivity|].
  unfold toks_ranks. rewrite <- app_comm_cons, <- app_assoc.
  rewrite p_ranks_open.
  - rewrite (p_sep_complete p_iexpr toks_iexpr (TSym SComma) always wf_iexpr (not_head SPlus));
      auto using p_iexpr_complete, toks_iexpr_nonempty.
  - (* an index expression does not begin with "]" *)
    apply andb_prop in Hwf. destruct Hwf as [He _]. cbn [map].
    destruct (join_head (TSym SComma) (toks_iexpr e) (map toks_iexpr rs) ([TSym SRBrack] ++ r)) as [r' ->].
    pose proof (toks_iexpr_starts e r' He) as S.
    destruct (toks_iexpr e ++ r') as [|[| | | | |[]] ?]; reflexivity || discriminate.
Qed.

Lemma p_factor_complete : complete p_factor toks_factor wf_factor (not_head SLBrack).
Proof.
  intros [x|x rs] r Hwf Hr; [now apply p_factor_var|].
  simpl in Hwf. apply andb_prop in Hwf. destruct Hwf as [_ Hrs].
  pose proof (p_ranks_complete rs r Hrs eq_refl) as HR.
  unfold toks_factor, toks_ranks in *. rewrite <- !app_comm_cons in *. cbn [p_factor]. now rewrite HR.
Qed.

Lemma toks_factor_nonempty f : toks_factor f <> [].
Proof. destruct f; discriminate. Qed.

Lemma toks_product_head f fs r : exists x r', join (TSym SStar) (map toks_factor (f :: fs)) ++ r = TName x :: r'.
Proof.
  cbn [map]. destruct (join_head (TSym SStar) (toks_factor f) (map toks_factor fs) r) as [r' ->]. destruct f; simpl; eauto.
Qed.

Definition fol_term (r : list token) : bool := not_head SLBrack r && not_head SStar r.

Lemma p_term_complete : complete p_term toks_term wf_term fol_term.
Proof.
  intros [fs|fs sel] r Hwf Hr; apply andb_prop in Hr; destruct Hr as [Hb Hs].
  - rewrite p_term_nokw.
    + cbn [toks_term]. rewrite (p_sep_complete p_factor toks_factor (TSym SStar) always wf_factor (not_head SLBrack));
        auto using p_factor_complete, toks_factor_nonempty, stop_always.
    + destruct fs as [|f fs]; [discriminate|]. cbn [toks_term].
      destruct (toks_product_head f fs r) as (x & r' & ->). reflexivity.
  - simpl in Hwf. apply andb_prop in Hwf. destruct Hwf as [Hfs Hsel].
    cbn [toks_term]. rewrite <- app_comm_cons, <- app_assoc. cbn [p_term]. simpl String.eqb.
    rewrite (p_sep_complete p_factor toks_factor (TSym SComma) cont_take wf_factor (not_head SLBrack));
      auto using p_factor_complete, toks_factor_nonempty.
    intros [] ? ?; reflexivity.
Qed.

Lemma toks_term_nonempty t : wf_term t = true -> toks_term t <> [].
Proof.
  destruct t as [[|f fs]|fs sel]; try discriminate. intros _ E.
  destruct (toks_product_head f fs []) as (x & r' & H). cbn [toks_term] in E. rewrite E in H. discriminate.
Qed.

Lemma p_einsum_complete e : wf_einsum e = true -> p_einsum (toks_einsum e) = Some e.
Proof.
  destruct e as [z rs tms]. unfold wf_einsum, toks_einsum. cbn [e_out e_ranks e_terms]. rewrite <- andb_assoc.
  intros H. apply andb_prop in H. destruct H as [H Htms]. apply andb_prop in H. destruct H as [_ Hrs].
  cbn [p_einsum]. rewrite (p_ranks_complete rs _ Hrs eq_refl).
  rewrite <- (app_nil_r (join _ _)), (p_sep_complete p_term toks_term (TSym SPlus) always wf_term fol_term);
    auto using p_term_complete, toks_term_nonempty.
Qed.

Lemma good_iterm t : wf_iterm t = true -> good MPlain (toks_iterm t) = true.
Proof.
  destruct t as [x|[] ds x]; simpl; intros H; try (apply andb_prop in H; destruct H as [H H']);
    unfold good; simpl; rewrite H, ?H'; reflexivity.
Qed.

Lemma good_iexpr e : wf_iexpr e = true -> good MPlain (toks_iexpr e) = true.
Proof. intros H. apply andb_prop in H. apply (good_join _ _ _ wf_iterm); try reflexivity; [apply good_iterm|tauto]. Qed.

Lemma good_ranks rs : wf_ranks rs = true -> good MPlain (toks_ranks rs) = true.
Proof.
  intros H. apply good_cons, good_app; try reflexivity. apply (good_join _ _ _ wf_iexpr); try reflexivity; [apply good_iexpr|tauto].
Qed.

Lemma good_factor f : wf_factor f = true -> good MPlain (toks_factor f) = true.
Proof.
  destruct f as [x|x rs]; simpl; intros H.
  - now apply good_one.
  - apply andb_prop in H. destruct H as [Hx Hrs].
    apply (good_app _ [TName x]); try reflexivity; [now apply good_one|now apply good_ranks].
Qed.

Lemma good_term t : wf_term t = true -> good MPlain (toks_term t) = true.
Proof.
  destruct t as [fs|fs sel]; simpl; intros H; apply andb_prop in H.
  - apply (good_join _ _ _ wf_factor); try reflexivity; [apply good_factor|tauto].
  - destruct H as [H Hsel]. apply andb_prop in H. apply good_cons, good_app; try reflexivity.
    + apply (good_join _ _ _ wf_factor); try reflexivity; [apply good_factor|tauto].
    + unfold good. simpl. now rewrite Hsel.
Qed.

Lemma good_einsum e : wf_einsum e = true -> good MPlain (toks_einsum e) = true.
Proof.
  destruct e as [z rs tms]. unfold wf_einsum, toks_einsum. cbn [e_out e_ranks e_terms]. intros H.
  apply andb_prop in H. destruct H as [H Htms]. apply andb_prop in H. destruct H as [H _].
  apply andb_prop in H. destruct H as [Hz Hrs].
  apply (good_app _ [TName z]); try reflexivity.
  - now apply good_one.
  - apply good_app; try reflexivity; [now apply good_ranks|].
    apply good_cons; try reflexivity. apply (good_join _ _ _ wf_term); try reflexivity; [apply good_term|tauto].
Qed.

Section TopLevel.
  Context {A : Type}.
  Variables (m : lmode) (toks : A -> list token) (p : list token -> option A) (wf : A -> bool).
  Hypothesis Hgood : forall a, wf a = true -> good m (toks a) = true.
  Hypothesis Hcomplete : forall a, wf a = true -> p (toks a) = Some a.
  Hypothesis Hsound : forall ts a, forallb (tok_ok m) ts = true -> p ts = Some a -> ts = toks a /\ wf a = true.

  Lemma top_parse_print a ws : wf a = true -> blanks ws = true -> obind (lex m (render (toks a) ws)) p = Some a.
  Proof.
    intros Hwf Hb. pose proof (Hgood _ Hwf) as Hg. apply andb_prop in Hg. destruct Hg as [Hok Hs].
    rewrite lex_render by assumption. simpl. now apply Hcomplete.
  Qed.

  Lemma top_parse_sound s a : obind (lex m s) p = Some a ->
    wf a = true /\ exists ws, blanks ws = true /\ List.length ws = S (List.length (toks a)) /\ s = render (toks a) ws.
  Proof.
    intros H. destruct (lex m s) as [ts|] eqn:El; [|discriminate]. simpl in H.
    destruct (lex_sound _ _ _ El) as (ws & Hb & Hlen & E & Hok).
    destruct (Hsound _ _ Hok H) as [-> Hwf]. split; auto. exists ws. auto.
  Qed.
End TopLevel.

Theorem eq_parse_print e ws : wf_einsum e = true -> blanks ws = true -> parse_eq (print_eq e ws) = Some e.
Proof. apply (top_parse_print MPlain toks_einsum p_einsum wf_einsum good_einsum p_einsum_complete). Qed.

Theorem eq_parse_sound s e : parse_eq s = Some e ->
  wf_einsum e = true /\ exists ws, blanks ws = true /\ List.length ws = S (List.length (toks_einsum e)) /\ s = print_eq e ws.
Proof. apply (top_parse_sound MPlain toks_einsum p_einsum wf_einsum). exact p_einsum_sound. Qed.

(* For the grammars without recursion the parser is inverted without looking at the tokens' spelling; that the
   tree is well-formed is then read off its own tokens. *)
Lemma flat_sound {A} m (toks : A -> list token) (p : list token -> option A) (wf : A -> bool) :
  (forall ts a, p ts = Some a -> ts = toks a) -> (forall a, forallb (tok_ok m) (toks a) = true -> wf a = true) ->
  forall ts a, forallb (tok_ok m) ts = true -> p ts = Some a -> ts = toks a /\ wf a = true.
Proof. intros Hp Hwf ts a Hok H. apply Hp in H. subst ts. auto. Qed.

Lemma p_dir_complete d : wf_dir d = true -> p_dir (toks_dir d) = Some d.
Proof. intros _. destruct d as [[]|l []|[]| |l]; reflexivity. Qed.

Lemma good_dir d : wf_dir d = true -> good MPlain (toks_dir d) = true.
Proof.
  unfold good. destruct d as [[ds|x]|l [ds|x]|[ds|x]| |l]; cbn -[is_ident is_digits]; intros H; bsplit;
    rewrite ?H, ?H0; reflexivity.
Qed.

Lemma p_dir_shape ts d : p_dir ts = Some d -> ts = toks_dir d.
Proof.
  destruct ts as [|[| |k| | |] r]; try discriminate. cbn [p_dir]. unfold option_map, p_size.
  destruct (String.eqb_spec k "nway_shape") as [->|_]; [|
  destruct (String.eqb_spec k "uniform_occupancy") as [->|_]; [|
  destruct (String.eqb_spec k "uniform_shape") as [->|_]; [|
  destruct (String.eqb_spec k "flatten") as [->|_]; [|
  destruct (String.eqb_spec k "follow") as [->|_]; [|discriminate]]]]];
  intros H; crunch H; injection H as <-; subst; reflexivity.
Qed.

Lemma ok_wf_dir d : forallb (tok_ok MPlain) (toks_dir d) = true -> wf_dir d = true.
Proof. destruct d as [[ds|x]|l [ds|x]|[ds|x]| |l]; cbn -[is_ident is_digits]; intros H; bsplit; auto. Qed.

Theorem dir_parse_print d ws : wf_dir d = true -> blanks ws = true -> parse_dir (print_dir d ws) = Some d.
Proof. apply (top_parse_print MPlain toks_dir p_dir wf_dir good_dir p_dir_complete). Qed.

Theorem dir_parse_sound s d : parse_dir s = Some d ->
  wf_dir d = true /\ exists ws, blanks ws = true /\ List.length ws = S (List.length (toks_dir d)) /\ s = print_dir d ws.
Proof. apply (top_parse_sound MPlain toks_dir p_dir wf_dir), flat_sound; [exact p_dir_shape|exact ok_wf_dir]. Qed.

Lemma p_st_complete a : wf_st a = true -> p_st (toks_st a) = Some a.
Proof. intros _. destruct a; reflexivity. Qed.

Lemma good_st a : wf_st a = true -> good MDot (toks_st a) = true.
Proof. destruct a; simpl; intros H; unfold good; simpl; rewrite H; reflexivity. Qed.

Lemma p_st_shape ts a : p_st ts = Some a -> ts = toks_st a.
Proof.
  destruct ts as [|[x| | | | |] [|[| | |w| |] [|]]]; try discriminate; cbn [p_st]; intros H.
  - injection H as <-. reflexivity.
  - destruct (String.eqb_spec w "pos") as [->|_]; [|destruct (String.eqb_spec w "coord") as [->|_]; [|discriminate]];
      injection H as <-; reflexivity.
Qed.

Lemma ok_wf_st a : forallb (tok_ok MDot) (toks_st a) = true -> wf_st a = true.
Proof. destruct a; simpl; intros H; bsplit; auto. Qed.

Theorem st_parse_print a ws : wf_st a = true -> blanks ws = true -> parse_st (print_st a ws) = Some a.
Proof. apply (top_parse_print MDot toks_st p_st wf_st good_st p_st_complete). Qed.

Theorem st_parse_sound s a : parse_st s = Some a ->
  wf_st a = true /\ exists ws, blanks ws = true /\ List.length ws = S (List.length (toks_st a)) /\ s = print_st a ws.
Proof. apply (top_parse_sound MDot toks_st p_st wf_st), flat_sound; [exact p_st_shape|exact ok_wf_st]. Qed.

Lemma p_lv_complete a : wf_lv a = true -> p_lv (toks_lv a) = Some a.
Proof. intros _. destruct a; reflexivity. Qed.

Lemma good_lv a : wf_lv a = true -> good MRange (toks_lv a) = true.
Proof. destruct a; simpl; intros H; bsplit; unfold good; simpl; rewrite ?H, ?H0; reflexivity. Qed.

Lemma p_lv_shape ts a : p_lv ts = Some a -> ts = toks_lv a.
Proof. intros H. unfold p_lv in H. crunch H; injection H as <-; reflexivity. Qed.

Lemma ok_wf_lv a : forallb (tok_ok MRange) (toks_lv a) = true -> wf_lv a = true.
Proof. destruct a; simpl; intros H; bsplit; auto. Qed.

Theorem lv_parse_print a ws : wf_lv a = true -> blanks ws = true -> parse_lv (print_lv a ws) = Some a.
Proof. apply (top_parse_print MRange toks_lv p_lv wf_lv good_lv p_lv_complete). Qed.

Theorem lv_parse_sound s a : parse_lv s = Some a ->
  wf_lv a = true /\ exists ws, blanks ws = true /\ List.length ws = S (List.length (toks_lv a)) /\ s = print_lv a ws.
Proof. apply (top_parse_sound MRange toks_lv p_lv wf_lv), flat_sound; [exact p_lv_shape|exact ok_wf_lv]. Qed.

Definition toks_names (xs : list string) : list token := join (TSym SComma) (map (fun x => [TName x]) xs).

Lemma toks_names_cons x y xs : toks_names (x :: y :: xs) = TName x :: TSym SComma :: toks_names (y :: xs).
Proof. reflexivity. Qed.

Lemma p_names_complete xs : xs <> [] -> p_names (toks_names xs ++ [TSym SRPar]) = Some xs.
Proof.
  induction xs as [|x xs IH]; intros Hne; [congruence|].
  destruct xs as [|y xs]; [reflexivity|].
  rewrite toks_names_cons. cbn [app p_names]. rewrite IH by discriminate. reflexivity.
Qed.

Lemma p_names_sound xs : forall ts, p_names ts = Some xs -> ts = toks_names xs ++ [TSym SRPar] /\ xs <> [].
Proof.
  induction xs as [|x xs IH]; intros ts H;
    destruct ts as [|[x'| | | | |] [|[| | | | |[]] r]]; try discriminate; cbn [p_names] in H.
  - apply ocons_some in H. destruct H as (l & _ & [=]).
  - destruct r; discriminate.
  - apply ocons_some in H. destruct H as (l & Hl & [= -> ->]). destruct (IH _ Hl) as [-> Hne].
    split; [|discriminate]. destruct l; [congruence|reflexivity].
  - destruct r; [|discriminate]. injection H as <- <-. split; [reflexivity|discriminate].
Qed.

Lemma p_rt_complete a : wf_rt a = true -> p_rt (toks_rt a) = Some a.
Proof.
  destruct a as [x|xs]; [reflexivity|]. simpl. intros H. apply andb_prop in H. destruct H as [Hlen _].
  fold (toks_names xs). destruct xs as [|x [|y xs]]; try discriminate.
  rewrite p_names_complete by discriminate. reflexivity.
Qed.

Lemma good_names xs : forallb is_ident xs = true -> good MPlain (toks_names xs) = true.
Proof.
  intros H. apply (good_join _ _ _ is_ident); try reflexivity; [|exact H].
  intros x. exact (good_one MPlain (TName x)).
Qed.

Lemma good_rt a : wf_rt a = true -> good MPlain (toks_rt a) = true.
Proof.
  destruct a as [x|xs]; simpl; intros H.
  - now apply good_one.
  - apply andb_prop in H. apply good_cons, good_app; try reflexivity. now apply good_names.
Qed.

Lemma okp_names xs : okp (toks_names xs) = true -> forallb is_ident xs = true.
Proof.
  unfold okp, toks_names. rewrite forallb_join by reflexivity.
  induction xs as [|x xs IH]; simpl; auto. rewrite andb_true_r. intros H. apply andb_prop in H. now rewrite (proj1 H), IH.
Qed.

(* here well-formedness is not only a matter of spelling: a tuple has at least two ranks *)
Lemma p_rt_sound ts a : okp ts = true -> p_rt ts = Some a -> ts = toks_rt a /\ wf_rt a = true.
Proof.
  intros Hok H. destruct ts as [|[x| | | | |[]] r]; try discriminate.
  - destruct r; [|discriminate]. injection H as <-. simpl in Hok. rewrite andb_true_r in Hok. auto.
  - cbn [p_rt] in H. destruct (p_names r) as [xs|] eqn:E; [|discriminate].
    apply p_names_sound in E. destruct E as [-> _].
    destruct xs as [|x [|y xs]]; try discriminate. injection H as <-.
    apply okp_tail in Hok. rewrite okp_app in Hok. apply andb_prop in Hok. destruct Hok as [Hok _].
    split; [reflexivity|exact (okp_names _ Hok)].
Qed.

Theorem rt_parse_print a ws : wf_rt a = true -> blanks ws = true -> parse_rt (print_rt a ws) = Some a.
Proof. apply (top_parse_print MPlain toks_rt p_rt wf_rt good_rt p_rt_complete). Qed.

Theorem rt_parse_sound s a : parse_rt s = Some a ->
  wf_rt a = true /\ exists ws, blanks ws = true /\ List.length ws = S (List.length (toks_rt a)) /\ s = print_rt a ws.
Proof. apply (top_parse_sound MPlain toks_rt p_rt wf_rt). exact p_rt_sound. Qed.

Section Consequences.
  Context {A : Type}.
  Variables (parse : string -> option A) (print : A -> list string -> string) (wf : A -> bool).
  Hypothesis parse_print : forall a ws, wf a = true -> blanks ws = true -> parse (print a ws) = Some a.
  Hypothesis parse_sound : forall s a, parse s = Some a -> wf a = true /\ exists ws, blanks ws = true /\ s = print a ws.

  Lemma ws_independent a ws1 ws2 : wf a = true -> blanks ws1 = true -> blanks ws2 = true ->
    parse (print a ws1) = parse (print a ws2).
  Proof. intros. rewrite !parse_print; auto. Qed.

  Lemma print_injective a b ws1 ws2 : wf a = true -> wf b = true -> blanks ws1 = true -> blanks ws2 = true ->
    print a ws1 = print b ws2 -> a = b.
  Proof.
    intros Ha Hb H1 H2 E. pose proof (parse_print a ws1 Ha H1) as P. rewrite E, parse_print in P; auto. now inversion P.
  Qed.

  Lemma outside_rejected s : (forall a ws, wf a = true -> blanks ws = true -> s <> print a ws) -> parse s = None.
  Proof.
    intros H. destruct (parse s) as [a|] eqn:E; auto.
    destruct (parse_sound _ _ E) as (Hwf & ws & Hb & Es). exfalso. eapply H; eauto.
  Qed.

  Lemma accepted_iff s a : parse s = Some a <-> (wf a = true /\ exists ws, blanks ws = true /\ s = print a ws).
  Proof.
    split; [apply parse_sound|]. intros (Hwf & ws & Hb & ->). now apply parse_print.
  Qed.
End Consequences.

Lemma drop_len {A} (parse : string -> option A) (print : A -> list string -> string) (wf : A -> bool) (toks : A -> list token) :
  (forall s a, parse s = Some a -> wf a = true /\ exists ws, blanks ws = true /\ List.length ws = S (List.length (toks a)) /\ s = print a ws) ->
  forall s a, parse s = Some a -> wf a = true /\ exists ws, blanks ws = true /\ s = print a ws.
Proof. intros H s a E. destruct (H s a E) as (Hw & ws & Hb & _ & Es). eauto. Qed.

Definition eq_sound' := drop_len _ _ _ _ eq_parse_sound.
Definition dir_sound' := drop_len _ _ _ _ dir_parse_sound.
Definition rt_sound' := drop_len _ _ _ _ rt_parse_sound.
Definition st_sound' := drop_len _ _ _ _ st_parse_sound.
Definition lv_sound' := drop_len _ _ _ _ lv_parse_sound.

Definition eq_accepted_iff := accepted_iff parse_eq print_eq wf_einsum eq_parse_print eq_sound'.
Definition dir_accepted_iff := accepted_iff parse_dir print_dir wf_dir dir_parse_print dir_sound'.
Definition rt_accepted_iff := accepted_iff parse_rt print_rt wf_rt rt_parse_print rt_sound'.
Definition st_accepted_iff := accepted_iff parse_st print_st wf_st st_parse_print st_sound'.
Definition lv_accepted_iff := accepted_iff parse_lv print_lv wf_lv lv_parse_print lv_sound'.

Definition eq_ws_independent := ws_independent parse_eq print_eq wf_einsum eq_parse_print.
Definition dir_ws_independent := ws_independent parse_dir print_dir wf_dir dir_parse_print.
Definition rt_ws_independent := ws_independent parse_rt print_rt wf_rt rt_parse_print.
Definition st_ws_independent := ws_independent parse_st print_st wf_st st_parse_print.
Definition lv_ws_independent := ws_independent parse_lv print_lv wf_lv lv_parse_print.

Definition eq_print_injective := print_injective parse_eq print_eq wf_einsum eq_parse_print.
Definition dir_print_injective := print_injective parse_dir print_dir wf_dir dir_parse_print.
Definition rt_print_injective := print_injective parse_rt print_rt wf_rt rt_parse_print.
Definition st_print_injective := print_injective parse_st print_st wf_st st_parse_print.
Definition lv_print_injective := print_injective parse_lv print_lv wf_lv lv_parse_print.

Definition eq_outside_rejected := outside_rejected parse_eq print_eq wf_einsum eq_sound'.
Definition dir_outside_rejected := outside_rejected parse_dir print_dir wf_dir dir_sound'.
Definition rt_outside_rejected := outside_rejected parse_rt print_rt wf_rt rt_sound'.
Definition st_outside_rejected := outside_rejected parse_st print_st wf_st st_sound'.
Definition lv_outside_rejected := outside_rejected parse_lv print_lv wf_lv lv_sound'.

Lemma coef_neg ds x : coef (ITimes true ds x) = (- coef (ITimes false ds x))%Z.
Proof. reflexivity. Qed.
Lemma coef_leading_zeros neg z ds x : all_chars (fun c => Ascii.eqb c "0"%char) z = true ->
  coef (ITimes neg (z ++ ds)%string x) = coef (ITimes neg ds x).
Proof. intros H. destruct neg; simpl; now rewrite value_leading_zeros. Qed.

(* a written coefficient shows by its signed value, not its spelling; "k" and "1*k" stay apart *)
Lemma view_iterm_spec t : view_iterm t = match t with IJust x => x | ITimes _ _ x => (show_Z (coef t) ++ "*" ++ x)%string end.
Proof. destruct t; reflexivity. Qed.

Lemma st_default_pos x : view_st (StBare x) = view_st (StPos x) /\ st_is_coord (StBare x) = false.
Proof. split; reflexivity. Qed.
Lemma st_view_coord a : st_is_coord a = true <-> exists x, a = StCoord x.
Proof. destruct a as [x|x|x]; simpl; split; try discriminate; try (intros [y [=]]); eauto. Qed.

Lemma lv_instances_spec a : lv_instances a = match a with LSingle _ => 1%N | LMultiple _ ds => (value ds + 1)%N end.
Proof. destruct a; reflexivity. Qed.
Lemma lv_instances_pos a : (1 <= lv_instances a)%N.
Proof. destruct a; simpl; lia. Qed.

(* the hypotheses of the theorems above are satisfiable *)

Definition tb : string := String (ascii_of_nat 9) EmptyString.

Definition ex_einsum : einsum :=
  mkEinsum "Z" [[IJust "m"]; [ITimes false "2" "n"; ITimes true "03" "k"]]
    [TTimes [FTensor "A" [[ITimes true "0" "k"; IJust "m"]; [IJust "n"]]; FVar "take"];
     TTake [FTensor "take" [[IJust "m"]]; FTensor "B" []; FVar "b"] "007"].
Definition ex_ws : list string := [" "; ""; tb; ""; " " ++ tb; ""; ""; ""; " "; ""; ""; ""; "  "; " "]%string.

Example ex_einsum_wf : wf_einsum ex_einsum = true /\ blanks ex_ws = true.
Proof. split; reflexivity. Qed.
Example ex_einsum_roundtrip : parse_eq (print_eq ex_einsum ex_ws) = Some ex_einsum.
Proof. apply eq_parse_print; reflexivity. Qed.
Example ex_einsum_view :
  option_map view_einsum (parse_eq (print_eq ex_einsum ex_ws)) = Some "Z[m,2*n+-3*k]=A[0*k+m,n]*take+take(take[m],B[],b,7)".
Proof. vm_compute. reflexivity. Qed.
Example ex_take_needs_paren : parse_eq "Z[m] = take (A[m], B[m], 1)" = None /\ parse_eq "Z[m] = take(A[m], B[m], 1)" <> None.
Proof. split; vm_compute; [reflexivity|discriminate]. Qed.
Example ex_float_rejected : parse_eq "Z[m] = A[2.5*m]" = None /\ parse_dir "uniform_shape(4.5)" = None /\ parse_lv "PE[0..1e1]" = None.
Proof. repeat split; vm_compute; reflexivity. Qed.
Example ex_dir : parse_dir (print_dir (DUOcc "A" (SzInt "016")) [" "; " "; tb; ""; ""; " "]) = Some (DUOcc "A" (SzInt "016")).
Proof. apply dir_parse_print; reflexivity. Qed.
Example ex_rt : parse_rt (print_rt (RTuple ["K"; "M1"; "_n"]) [""; " "; ""; tb; ""; ""; ""; " "]) = Some (RTuple ["K"; "M1"; "_n"]).
Proof. apply rt_parse_print; reflexivity. Qed.
Example ex_st : parse_st (print_st (StCoord "coord") [tb; " "; " "]) = Some (StCoord "coord") /\ parse_st "K. pos" = None.
Proof. split; [apply st_parse_print; reflexivity|vm_compute; reflexivity]. Qed.
Example ex_lv : parse_lv (print_lv (LMultiple "PE" "015") [""; " "; " "; ""; " "]) = Some (LMultiple "PE" "015")
               /\ lv_instances (LMultiple "PE" "015") = 16%N /\ parse_lv "PE[0 ..15]" = None.
Proof. split; [apply lv_parse_print; reflexivity|split; vm_compute; reflexivity]. Qed.
