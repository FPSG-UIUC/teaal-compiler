(* Proofs about Model/TensorSM.v (C05, C07). *)
From Coq Require Import String List Bool.
Require Import TV.Model.TensorSM TV.Proofs.ListFacts.
Import ListNotations.

Lemma tstep_name t o : t_name (tstep t o) = t_name t.
Proof. destruct o; reflexivity. Qed.
Lemma tstep_init t o : t_init (tstep t o) = t_init t.
Proof. destruct o; reflexivity. Qed.

Lemma trun_name_init t ops : t_name (trun t ops) = t_name t /\ t_init (trun t ops) = t_init t.
Proof.
  apply (fold_left_invariant (fun t' => t_name t' = t_name t /\ t_init t' = t_init t)); [|split; reflexivity].
  intros t' o _ [A B]. rewrite tstep_name, tstep_init. split; assumption.
Qed.

(* reset reads only the name and the initial ranks, which no operation writes *)
Lemma treset_trun t ops : treset (trun t ops) = treset t.
Proof. unfold treset. destruct (trun_name_init t ops) as [-> ->]. reflexivity. Qed.

Theorem reset_restores name ranks ops : treset (trun (tinit name ranks) ops) = tinit name ranks.
Proof. exact (treset_trun (tinit name ranks) ops). Qed.

Theorem init_ranks_constant name ranks ops : t_init (trun (tinit name ranks) ops) = ranks.
Proof. exact (proj2 (trun_name_init (tinit name ranks) ops)). Qed.

Lemma trun_reset t ops1 ops2 : trun t (ops1 ++ OReset :: ops2) = trun (treset t) ops2.
Proof.
  unfold trun. rewrite fold_left_app. cbn [fold_left tstep]. fold (trun t ops1). rewrite treset_trun. reflexivity.
Qed.

Theorem reset_forgets name ranks ops1 ops2 :
  trun (tinit name ranks) (ops1 ++ OReset :: ops2) = trun (tinit name ranks) ops2.
Proof. exact (trun_reset (tinit name ranks) ops1 ops2). Qed.

Theorem tensor_name_spells t :
  exists suffix, tensor_name t = (t_name t ++ "_" ++ String.concat "" (active t) ++ suffix)%string /\
                 (suffix = ""%string \/ suffix = "_flat"%string).
Proof.
  unfold tensor_name. destruct (t_flat t && negb (t_out t)); eexists; split; try reflexivity; auto.
Qed.
