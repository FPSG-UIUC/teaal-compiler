(* C16: the per-program certificate for the third clause.  `tools/stampview.py` reads off an emitted
   program, for one addActivity call: the depth n of the enclosing nest, per loop the loop whose
   coordinate its relative-coordinate stamp subtracts (if any), and the loops named by the space and
   time tuples.  `stamp_cert_okb` decides the hypotheses of `mixed_st_stamp_NoDup`. *)
From Coq Require Import List ZArith Bool Lia.
Require Import TV.Proofs.StampInj.
Import ListNotations.

Definition parent_of (pl : list (option nat)) (i : nat) : option nat := nth i pl None.

Fixpoint parents_okb_from (k : nat) (pl : list (option nat)) : bool :=
  match pl with
  | [] => true
  | o :: pl' => (match o with Some j => Nat.ltb j k | None => true end) && parents_okb_from (S k) pl'
  end.

Definition covers_okb (n : nat) (space time : list nat) : bool :=
  forallb (fun i => existsb (Nat.eqb i) (space ++ time)) (seq 0 n).

Definition stamp_cert_okb (n : nat) (pl : list (option nat)) (space time : list nat) : bool :=
  Nat.eqb (length pl) n && parents_okb_from 0 pl && covers_okb n space time.

Lemma parents_okb_from_sound pl : forall k, parents_okb_from k pl = true ->
  forall i j, nth i pl None = Some j -> j < k + i.
Proof.
  induction pl as [|o pl IH]; intros k H i j E; [destruct i; discriminate E|].
  cbn [parents_okb_from] in H. apply andb_true_iff in H. destruct H as [H1 H2].
  destruct i as [|i]; cbn [nth] in E.
  - subst o. apply Nat.ltb_lt in H1. lia.
  - specialize (IH (S k) H2 i j E). lia.
Qed.

Lemma covers_okb_sound n space time : covers_okb n space time = true ->
  forall i, i < n -> In i (space ++ time).
Proof.
  unfold covers_okb. intros H i Hi. rewrite forallb_forall in H.
  specialize (H i). rewrite in_seq in H. specialize (H ltac:(lia)).
  apply existsb_exists in H. destruct H as [x [Hx E]]. apply Nat.eqb_eq in E. subst x. exact Hx.
Qed.

(* an accepted certificate: whatever fibers the loops walk (as long as the fiber a loop walks is
   selected by the enclosing loops only) and whatever style each rank uses, distinct iterations
   carry distinct (space, time) stamps *)
Theorem stamp_cert_sound n pl space time :
  stamp_cert_okb n pl space time = true ->
  forall (fiber : nat -> (nat -> Z) -> list Z) (is_pos : nat -> bool),
  (forall i p q, (forall j, j < i -> p j = q j) -> fiber i p = fiber i q) ->
  forall its : list (list Z), (forall p, In p its -> length p = n /\ runs fiber n (at_ p)) -> NoDup its ->
  NoDup (map (fun p => st_stamp Z (mixed_stamp (parent_of pl) fiber is_pos) space time (at_ p)) its).
Proof.
  unfold stamp_cert_okb. rewrite !andb_true_iff. intros [[_ Hp] Hc] fiber is_pos Hf.
  apply (mixed_st_stamp_NoDup (parent_of pl) fiber is_pos n).
  - exact (parents_okb_from_sound pl 0 Hp).
  - exact Hf.
  - exact (covers_okb_sound n space time Hc).
Qed.

(* the certificate of a nest with loops k1, m, k0, n and spacetime=((k1, n_pos), (m_pos, k0 - k1)) *)
Example cert_example : stamp_cert_okb 4 [None; None; Some 0; None] [0; 3] [1; 2] = true.
Proof. reflexivity. Qed.
Example cert_rejects_unstamped : stamp_cert_okb 4 [None; None; Some 0; None] [0; 3] [2] = false.
Proof. reflexivity. Qed.
Example cert_rejects_later_parent : stamp_cert_okb 2 [Some 1; None] [0] [1] = false.
Proof. reflexivity. Qed.
