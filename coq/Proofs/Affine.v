(* Affine index expressions (C04): exact inversion over Z, and the binary64 evaluation of
   the emitted fractional projections (Python floats, modelled by PrimFloat in Model/Rt.v). *)
From Coq Require Import ZArith Lia List Bool PrimFloat.
Require Import TV.Model.Rt.
Import ListNotations.
Open Scope Z_scope.

Theorem proj_inverse a q w r : a <> 0 -> (w = a * q + r <-> ((w - r) mod a = 0 /\ q = (w - r) / a)).
Proof.
  intros Ha. split.
  - intros ->. replace (a * q + r - r) with (q * a) by lia. split; [apply Z.mod_mul; exact Ha|].
    symmetry. apply Z.div_mul. exact Ha.
  - intros [Hm ->]. pose proof (Z.div_mod (w - r) a Ha). lia.
Qed.

(* the interval filter of project(): nothing outside [lo, hi) survives *)
Theorem interval_clip (lo hi : Z) (cs : list Z) :
  Forall (fun c => lo <= c < hi) (filter (fun c => (lo <=? c) && (c <? hi)) cs).
Proof.
  apply Forall_forall. intros c Hc. apply filter_In in Hc as [_ H].
  apply andb_true_iff in H as [H1 H2]. lia.
Qed.

(* the emitted projection `-1 / d * q + 1 / d * w` evaluated in binary64 *)
Definition fproj (d q w : Z) : float :=
  PrimFloat.add (PrimFloat.mul (PrimFloat.div (z2f (-1)) (z2f d)) (z2f q))
                (PrimFloat.mul (PrimFloat.div (z2f 1) (z2f d)) (z2f w)).

(* what `.prune(lambda i, c, p: c % 1 == 0)` keeps *)
Definition kept (f : float) : bool :=
  match nmod (NF f) (NI 1) with Some r => nis0 r | None => false end.

(* finding F11: for d = 3 an integral solution is pruned (q = 1, w = 7: 1.9999999999999998) *)
Theorem float_prune_refuted : exists q w, (w - q) mod 3 = 0 /\ 0 <= q /\ q <= w /\ kept (fproj 3 q w) = false.
Proof. exists 1, 7. vm_compute. repeat split; discriminate. Qed.

(* for denominators 1, 2 and 4 the float evaluation is exact on 0 <= q <= w < 128:
   integral solutions are kept with the right value, non-solutions are pruned *)
Definition fproj_exact_at (d q w : Z) : bool :=
  if (w - q) mod d =? 0
  then match f_integral (fproj d q w) with Some z => z =? (w - q) / d | None => false end
  else negb (kept (fproj d q w)).

(* The sweep is split in two, because deciding integrality (f_integral, kept) sends the float through Prim2SF, which
   is dear for the checker, while the float operations themselves are primitive:
   (1) on the whole triangle the emitted expression IS the quotient (w - q) / d computed by one float division -
       one equation between two lists of floats, decided by evaluating primitives only;
   (2) the quotient c / d is integral exactly when d divides c - the dear test, but on 3 x 128 values of c = w - q,
       not on 3 x 8256 pairs. *)
Definition fquot (d c : Z) : float := PrimFloat.div (z2f c) (z2f d).

Definition fquot_exact_at (d c : Z) : bool :=
  if c mod d =? 0
  then match f_integral (fquot d c) with Some z => z =? c / d | None => false end
  else negb (kept (fquot d c)).

Lemma zrange_In k n : forall lo, In k (zrange lo n) <-> lo <= k < lo + Z.of_nat n.
Proof. induction n as [|n IH]; intros lo; cbn [zrange In]; [lia|]. rewrite IH. lia. Qed.

(* For (1) each integer is converted to a float once, F = [z2f 0; ..; z2f (n - 1)], and not once per pair (converting
   costs the checker more than the arithmetic).  The row of q is g (z2f q) (z2f w, z2f (w - q)) for w = q, .., n - 1:
   the tail of F that starts at z2f q runs through the z2f w while F from its head runs through the z2f (w - q). *)
Fixpoint rows {X A} (g : X -> X * X -> A) (F t : list X) : list (list A) :=
  match t with [] => [] | x :: t' => map (g x) (combine t F) :: rows g F t' end.

Lemma combine_zrange_In {X} (f : Z -> X) m : forall n a b x y,
  x - a = y - b -> a <= x < a + Z.of_nat m -> y < b + Z.of_nat n ->
  In (f x, f y) (combine (map f (zrange a m)) (map f (zrange b n))).
Proof.
  induction m as [|m IH]; intros [|n] a b x y E Hx Hy; cbn [zrange map combine In]; try lia.
  destruct (Z.eq_dec x a) as [->|N]; [left; replace y with b by lia; reflexivity|right]. apply IH; lia.
Qed.

Lemma rows_zrange_ext {X A} (f : Z -> X) (g h : X -> X * X -> A) n :
  let F := map f (zrange 0 n) in rows g F F = rows h F F ->
  forall q w, 0 <= q -> q <= w -> w < Z.of_nat n -> g (f q) (f w, f (w - q)) = h (f q) (f w, f (w - q)).
Proof.
  intros F.
  enough (G : forall m lo, rows g F (map f (zrange lo m)) = rows h F (map f (zrange lo m)) ->
              forall q w, lo <= q -> q <= w -> w < lo + Z.of_nat m -> w - q < Z.of_nat n ->
              g (f q) (f w, f (w - q)) = h (f q) (f w, f (w - q))).
  { intros E q w Hq Hqw Hw. apply (G n 0 E); lia. }
  induction m as [|m IH]; intros lo E q w Hlo Hqw Hw Hc; [lia|].
  injection E as Erow Erest. destruct (Z.eq_dec q lo) as [->|N]; [|apply (IH (lo + 1) Erest); lia].
  apply (ext_in_map Erow). apply (combine_zrange_In f (S m)); lia.
Qed.

(* fproj and fquot on converted arguments; what depends on d alone is computed once per list *)
Definition fproj_f (d : Z) : float -> float * float -> float :=
  let nd := PrimFloat.div (z2f (-1)) (z2f d) in let pd := PrimFloat.div (z2f 1) (z2f d) in
  fun fq wc => PrimFloat.add (PrimFloat.mul nd fq) (PrimFloat.mul pd (fst wc)).
Definition fquot_f (d : Z) : float -> float * float -> float :=
  let fd := z2f d in fun _ wc => PrimFloat.div (snd wc) fd.

Lemma fproj_is_fquot_128 d : d = 1 \/ d = 2 \/ d = 4 ->
  let F := map z2f (zrange 0 128) in rows (fproj_f d) F F = rows (fquot_f d) F F.
Proof. intros [->|[->| ->]] F; vm_compute; reflexivity. Qed.

Lemma fquot_exact_128 : forallb (fun d => forallb (fquot_exact_at d) (zrange 0 128)) [1; 2; 4] = true.
Proof. vm_compute. reflexivity. Qed.

Theorem float_proj_exact_pow2 d q w : (d = 1 \/ d = 2 \/ d = 4) -> 0 <= q -> q <= w -> w < 128 ->
  fproj_exact_at d q w = true.
Proof.
  intros Hd Hq Hqw Hw. unfold fproj_exact_at.
  rewrite (rows_zrange_ext z2f _ _ 128 (fproj_is_fquot_128 d Hd) q w Hq Hqw Hw : fproj d q w = fquot d (w - q)).
  change (fquot_exact_at d (w - q) = true).
  pose proof fquot_exact_128 as S. rewrite forallb_forall in S. specialize (S d).
  rewrite forallb_forall in S. apply S; [cbn [In]; intuition congruence|apply zrange_In; lia].
Qed.
