(* C07, static half: the checker `chk` / `rankty_ok` of Model/RankTy.v is sound for the all-paths
   rank-id semantics `sem` (`chk_sound`, `rankty_sound`).  The join / loop-invariant candidates
   (`widen`) are NOT trusted: only `leb` is, and `leb_sound` is proved.  That user-supplied tensor
   objects keep their rank ids on every path that does not go bad (`sem_frame`) holds of the
   semantics, whatever the checker says. *)
From Coq Require Import String List Bool PArith ZArith FMapPositive Lia.
Require Import TV.Model.Py TV.Model.RankTy TV.Proofs.PyInd TV.Proofs.ListFacts.
Import ListNotations.

Lemma rbind_ok : forall A B (r : rres A) (f : A -> rres B) b,
  rbind r f = ROk b -> exists a, r = ROk a /\ f a = ROk b.
Proof. intros A B [a|w|x] f b H; simpl in H; try discriminate. eauto. Qed.

(* s is the computation of the semantics, c the checker's.  s may stop at an unbound name: such an
   execution has no outcome in `sem`. *)
Definition sim {A B} (R : A -> B -> Prop) (s : rres A) (c : rres B) : Prop :=
  forall b, c = ROk b -> match s with ROk a => R a b | RBad _ => False | RUnbound _ => True end.

Definition mono {A} : rres A -> rres A -> Prop := sim eq.

Lemma sim_ret : forall A B (R : A -> B -> Prop) a b, R a b -> sim R (ROk a) (ROk b).
Proof. intros A B R a b H b' E. injection E as <-. exact H. Qed.

Lemma mono_refl : forall A (r : rres A), mono r r.
Proof. intros A [a|w|x] b H; [injection H as <-; reflexivity|discriminate H|exact I]. Qed.

Lemma sim_bind : forall A B A' B' (R : A -> B -> Prop) (Q : A' -> B' -> Prop) s c f g,
  sim R s c -> (forall a b, R a b -> sim Q (f a) (g b)) -> sim Q (rbind s f) (rbind c g).
Proof.
  intros A B A' B' R Q s c f g Hs Hf b' H. apply rbind_ok in H. destruct H as [b [Hc Hg]].
  specialize (Hs b Hc). destruct s as [a|w|x]; simpl; [exact (Hf a b Hs b' Hg)|exact Hs|exact I].
Qed.

Lemma mono_bind : forall A A' B' (Q : A' -> B' -> Prop) (s c : rres A) f g,
  mono s c -> (forall a, sim Q (f a) (g a)) -> sim Q (rbind s f) (rbind c g).
Proof. intros A A' B' Q s c f g Hs Hf. eapply sim_bind; [exact Hs|]. intros a b <-. apply Hf. Qed.

Lemma mono_bind_same : forall A B (s c : rres A) (f : A -> rres B),
  mono s c -> mono (rbind s f) (rbind c f).
Proof. intros. apply mono_bind; [assumption|intros; apply mono_refl]. Qed.

Lemma mono_if : forall A (b : bool) (s c s' c' : rres A),
  mono s c -> mono s' c' -> mono (if b then s else s') (if b then c else c').
Proof. intros A [] s c s' c' H H'; assumption. Qed.

Lemma prov_eqb_eq : forall a b, prov_eqb a b = true -> a = b.
Proof. intros [] []; simpl; congruence. Qed.

Section PvalInd.
  Variable P : pval -> Prop.
  Hypothesis HFib : forall p, P (PvFib p).
  Hypothesis HOther : P PvOther.
  Hypothesis HTup : forall l, Forall P l -> P (PvTup l).
  Fixpoint pval_ind' (v : pval) : P v :=
    match v as v0 return P v0 with
    | PvFib p => HFib p
    | PvOther => HOther
    | PvTup l => HTup l ((fix go (l : list pval) : Forall P l :=
                            match l with
                            | [] => Forall_nil P
                            | x :: l' => Forall_cons x (pval_ind' x) (go l')
                            end) l)
    end.
End PvalInd.

Lemma pval_eqb_eq : forall a b, pval_eqb a b = true -> a = b.
Proof.
  induction a as [p| |l IH] using pval_ind'; intros b H; destruct b as [q|m|]; simpl in H; try discriminate.
  - apply prov_eqb_eq in H. congruence.
  - reflexivity.
  - f_equal. revert m H. induction IH as [|x l Hx _ IHl]; intros m H; destruct m as [|y m]; try discriminate.
    + reflexivity.
    + apply andb_true_iff in H. destruct H as [H1 H2]. f_equal; [apply Hx; exact H1|apply IHl; exact H2].
Qed.

Lemma strs_eqb_eq : forall a b, strs_eqb a b = true <-> a = b.
Proof. apply (list_eqb_iff String.eqb); [apply String.eqb_eq|intros [|] [|]; reflexivity]. Qed.

Lemma tobj_eqb_eq : forall a b, tobj_eqb a b = true -> a = b.
Proof.
  intros [i1 o1 d1] [i2 o2 d2] H. unfold tobj_eqb in H. simpl in H.
  apply andb_true_iff in H. destruct H as [H H3]. apply andb_true_iff in H. destruct H as [H1 H2].
  apply strs_eqb_eq in H1. apply prov_eqb_eq in H2. apply prov_eqb_eq in H3. congruence.
Qed.

Lemma aval_eqb_nt_eq : forall a b, aval_eqb_nt a b = true -> a = b.
Proof.
  intros [c|p|p|p|g|] [c'|q|q|q|h|] H; simpl in H; try discriminate;
    try (apply pval_eqb_eq in H; congruence).
  apply String.eqb_eq in H. congruence.
Qed.

Definition wf (A : st) : Prop :=
  (forall x b c, PM.find x (env A) = Some (b, ATensor c) -> PM.find c (heap A) <> None) /\
  (forall c o, PM.find c (heap A) = Some o -> Pos.lt c (next A)).

Definition hwf (s : st) : Prop := forall c o, PM.find c (heap s) = Some o -> Pos.lt c (next s).

Definition vle (hA hB : PM.t tobj) (v w : aval) : Prop :=
  w = ATop \/
  match v, w with
  | ATensor ca, ATensor cb => exists o, PM.find ca hA = Some o /\ PM.find cb hB = Some o
  | ATensor _, _ | _, ATensor _ => False
  | _, _ => v = w
  end.

(* A <= B: every claim of B holds of A.  What `leb` decides (`leb_sound`). *)
Definition le (A B : st) : Prop :=
  wf A /\ wf B /\
  (forall x, match PM.find x (env B) with
             | None => PM.find x (env A) = None
             | Some (mb, w) => match PM.find x (env A) with
                               | None => mb = false
                               | Some (ma, v) => (mb = true -> ma = true) /\ vle (heap A) (heap B) v w
                               end
             end) /\
  (forall x y ba ca ba' ca' bb cb bb' cb',
      PM.find x (env A) = Some (ba, ATensor ca) -> PM.find y (env A) = Some (ba', ATensor ca') ->
      PM.find x (env B) = Some (bb, ATensor cb) -> PM.find y (env B) = Some (bb', ATensor cb') ->
      (ca = ca' <-> cb = cb')).

Definition nontensor (a : aval) : Prop := match a with ATensor _ => False | _ => True end.

Inductive vle_case (hA hB : PM.t tobj) : aval -> aval -> Prop :=
| vle_top v : vle_case hA hB v ATop
| vle_obj ca cb o : PM.find ca hA = Some o -> PM.find cb hB = Some o -> vle_case hA hB (ATensor ca) (ATensor cb)
| vle_same v : nontensor v -> vle_case hA hB v v.

Lemma vle_iff : forall hA hB v w, vle hA hB v w <-> vle_case hA hB v w.
Proof.
  intros hA hB v w. unfold vle. split.
  - intros [->|H]; [constructor|].
    destruct v as [ca|p|p|p|g|]; destruct w as [cb|q|q|q|h|]; try discriminate H;
      try (destruct H; constructor; exact I).
    destruct H as [o [Ha Hb]]. econstructor; eassumption.
  - intros [v'|ca cb o Ha Hb|v' N]; [left; reflexivity|right; eauto|right].
    destruct v'; try reflexivity. destruct N.
Qed.

Lemma vle_tensor_r : forall hA hB v cb, vle hA hB v (ATensor cb) ->
  exists ca o, v = ATensor ca /\ PM.find ca hA = Some o /\ PM.find cb hB = Some o.
Proof. intros hA hB v cb H. apply vle_iff in H. inversion H as [|ca cb' o Ha Hb|v' N]; subst; [eauto|destruct N]. Qed.

Lemma vle_heaps : forall hA hB hA' hB' v w, vle hA hB v w ->
  (forall ca cb o, v = ATensor ca -> w = ATensor cb -> PM.find ca hA = Some o -> PM.find cb hB = Some o ->
     exists o', PM.find ca hA' = Some o' /\ PM.find cb hB' = Some o') ->
  vle hA' hB' v w.
Proof.
  intros hA hB hA' hB' v w V H. apply vle_iff. apply vle_iff in V.
  destruct V as [v|ca cb o Ha Hb|v N]; [constructor| |constructor; exact N].
  destruct (H ca cb o eq_refl eq_refl Ha Hb) as [o' [Ha' Hb']]. econstructor; eassumption.
Qed.

Lemma le_find : forall S C x ma v mb w, le S C ->
  PM.find x (env S) = Some (ma, v) -> PM.find x (env C) = Some (mb, w) -> vle (heap S) (heap C) v w.
Proof. intros S C x ma v mb w [_ [_ [Pw _]]] FS FC. specialize (Pw x). rewrite FC, FS in Pw. apply Pw. Qed.

Lemma le_absent : forall S C x, le S C -> PM.find x (env C) = None -> PM.find x (env S) = None.
Proof. intros S C x [_ [_ [Pw _]]] FC. specialize (Pw x). rewrite FC in Pw. exact Pw. Qed.

Lemma le_must : forall S C x w, le S C -> PM.find x (env C) = Some (true, w) -> PM.find x (env S) <> None.
Proof. intros S C x w [_ [_ [Pw _]]] FC FS. specialize (Pw x). rewrite FC, FS in Pw. discriminate Pw. Qed.

Lemma wfb_wf : forall A, wfb A = true -> wf A.
Proof.
  intros A H. unfold wfb in H. apply andb_true_iff in H. destruct H as [H1 H2].
  rewrite forallb_forall in H1, H2. split.
  - intros x b c Hx. apply PM.elements_correct in Hx. specialize (H1 _ Hx). simpl in H1.
    destruct (PM.find c (heap A)); [discriminate|discriminate H1].
  - intros c o Hc. apply PM.elements_correct in Hc. specialize (H2 _ Hc). simpl in H2.
    apply Pos.ltb_lt. exact H2.
Qed.

Lemma vleb_vle : forall A B v w, vleb A B v w = true -> vle (heap A) (heap B) v w.
Proof.
  intros A B v w H. unfold vleb in H. apply vle_iff.
  destruct w as [cb|p|p|p|g|]; [|apply aval_eqb_nt_eq in H; subst v; constructor; exact I ..|constructor].
  destruct v as [ca|p|p|p|g|]; try discriminate.
  destruct (PM.find ca (heap A)) as [oa|] eqn:Ea; [|discriminate].
  destruct (PM.find cb (heap B)) as [ob|] eqn:Eb; [|discriminate].
  apply tobj_eqb_eq in H. subst ob. econstructor; eassumption.
Qed.

Lemma in_tensor_vars : forall A x b c, PM.find x (env A) = Some (b, ATensor c) -> In (x, c) (tensor_vars A).
Proof.
  intros A x b c H. apply PM.elements_correct in H. unfold tensor_vars. apply in_flat_map.
  exists (x, (b, ATensor c)). split; [exact H|simpl; left; reflexivity].
Qed.

Lemma leb_sound : forall A B, leb A B = true -> le A B.
Proof.
  intros A B H. unfold leb in H.
  apply andb_true_iff in H. destruct H as [H H5]. apply andb_true_iff in H. destruct H as [H H4].
  apply andb_true_iff in H. destruct H as [H H3]. apply andb_true_iff in H. destruct H as [H1 H2].
  rewrite forallb_forall in H3, H4, H5.
  split; [apply wfb_wf; exact H1|]. split; [apply wfb_wf; exact H2|]. split.
  - intros x. destruct (PM.find x (env B)) as [[mb w]|] eqn:EB.
    + apply PM.elements_correct in EB. specialize (H4 _ EB). simpl in H4.
      destruct (PM.find x (env A)) as [[ma v]|].
      * apply andb_true_iff in H4. destruct H4 as [Hi Hv]. split.
        -- intros Hm. subst mb. simpl in Hi. exact Hi.
        -- apply vleb_vle. exact Hv.
      * destruct mb; [discriminate H4|reflexivity].
    + destruct (PM.find x (env A)) as [v|] eqn:EA; [|reflexivity].
      apply PM.elements_correct in EA. specialize (H3 _ EA). simpl in H3. rewrite EB in H3. discriminate.
  - intros x y ba ca ba' ca' bb cb bb' cb' Ax Ay Bx By.
    pose proof (in_tensor_vars _ _ _ _ Bx) as Ix. pose proof (in_tensor_vars _ _ _ _ By) as Iy.
    specialize (H5 _ Ix). rewrite forallb_forall in H5. specialize (H5 _ Iy). simpl in H5.
    rewrite Ax, Ay in H5. apply Bool.eqb_prop in H5. rewrite <- !Pos.eqb_eq, H5. reflexivity.
Qed.

Lemma le_refl : forall A, wf A -> le A A.
Proof.
  intros A W. split; [exact W|]. split; [exact W|]. split.
  - intros x. destruct (PM.find x (env A)) as [[m v]|] eqn:E; [|reflexivity]. split; [tauto|].
    apply vle_iff. destruct v as [c|p|p|p|g|]; try (constructor; exact I).
    destruct (PM.find c (heap A)) as [o|] eqn:F; [econstructor; eassumption|].
    destruct (proj1 W _ _ _ E F).
  - intros x y ba ca ba' ca' bb cb bb' cb' Ax Ay Bx By. rewrite Ax in Bx. rewrite Ay in By.
    inversion Bx. inversion By. subst. tauto.
Qed.

Lemma vle_trans : forall hA hB hC u v w, vle hA hB u v -> vle hB hC v w -> vle hA hC u w.
Proof.
  intros hA hB hC u v w H1 H2. apply vle_iff in H2. destruct H2 as [v|cb cc o Hb Hc|v N].
  - apply vle_iff. constructor.
  - destruct (vle_tensor_r _ _ _ _ H1) as [ca [o' [-> [Ha Hb']]]]. rewrite Hb in Hb'. injection Hb' as <-.
    apply vle_iff. econstructor; eassumption.
  - eapply vle_heaps; [exact H1|]. intros ca cb o _ ->. destruct N.
Qed.

Lemma le_trans : forall A B C, le A B -> le B C -> le A C.
Proof.
  intros A B C L1 L2. pose proof L1 as [WA [WB [P1 Q1]]]. pose proof L2 as [_ [WC [P2 Q2]]].
  split; [exact WA|]. split; [exact WC|]. split.
  - intros x. specialize (P1 x). specialize (P2 x).
    destruct (PM.find x (env C)) as [[mc w]|].
    + destruct (PM.find x (env B)) as [[mb v]|].
      * destruct (PM.find x (env A)) as [[ma u]|].
        -- destruct P1 as [M1 V1]. destruct P2 as [M2 V2]. split; [tauto|]. eapply vle_trans; eassumption.
        -- destruct P2 as [M2 _]. destruct mc; [|reflexivity]. rewrite (M2 eq_refl) in P1. discriminate.
      * rewrite P1. exact P2.
    + rewrite P2 in P1. exact P1.
  - (* a tensor variable of A and C is one of B too *)
    assert (T : forall x b c bc cc, PM.find x (env A) = Some (b, ATensor c) -> PM.find x (env C) = Some (bc, ATensor cc) ->
                exists bb cb, PM.find x (env B) = Some (bb, ATensor cb)).
    { intros x b c bc cc Ax Cx. destruct (PM.find x (env B)) as [[bb v]|] eqn:Bx.
      - destruct (vle_tensor_r _ _ _ _ (le_find _ _ _ _ _ _ _ L2 Bx Cx)) as [cb [o [-> _]]]. eauto.
      - rewrite (le_absent _ _ _ L1 Bx) in Ax. discriminate. }
    intros x y ba ca ba' ca' bc cc bc' cc' Ax Ay Cx Cy.
    destruct (T _ _ _ _ _ Ax Cx) as [bb [cb Bx]]. destruct (T _ _ _ _ _ Ay Cy) as [bb' [cb' By]].
    rewrite (Q1 x y _ _ _ _ _ _ _ _ Ax Ay Bx By). apply (Q2 x y _ _ _ _ _ _ _ _ Bx By Cx Cy).
Qed.

(* `aeval` goes through lists by anonymous fixpoints.  The model names two of them (`aevals`, `aevalkw`),
   `aevaldict` names the third; the equations below fold them. *)
Fixpoint aevaldict (rh : positive -> rres rval) (l : list (expr * expr)) : rres (list rval) :=
  match l with
  | [] => ROk []
  | (k, v) :: l' => dor vk <- aeval rh k; dor vv <- aeval rh v; dor r <- aevaldict rh l'; ROk (vk :: vv :: r)
  end.

Lemma aeval_inner_evals : forall rh l,
  (fix go (l : list expr) : rres (list rval) :=
     match l with
     | [] => ROk []
     | e :: l' => dor v <- aeval rh e; dor vs <- go l'; ROk (v :: vs)
     end) l = aevals rh l.
Proof.
  induction l as [|e l IH]; simpl; [reflexivity|]. rewrite IH. reflexivity.
Qed.

Lemma aeval_inner_kw : forall rh l,
  (fix go (l : list (string * expr)) : rres (list (string * rval)) :=
     match l with
     | [] => ROk []
     | (k, e) :: l' => dor v <- aeval rh e; dor vs <- go l'; ROk ((k, v) :: vs)
     end) l = aevalkw rh l.
Proof.
  induction l as [|[k e] l IH]; simpl; [reflexivity|]. rewrite IH. reflexivity.
Qed.

Definition call_fun (vf : rval) (kw : list (string * expr)) (vs : list rval) (kvs : list (string * rval)) : rres rval :=
  match vf with
  | RGlob g =>
      if String.eqb g "Tensor" then
        match kw_find "rank_ids" kw with
        | Some ie => match lit_ids ie with
                     | Some ids => ROk (RTensor (mkT ids Prog Prog))
                     | None => RBad "rank_ids is not a literal list of strings" end
        | None => RBad "Tensor: rank_ids missing"
        end
      else global_call g vs kvs
  | RP PvOther => ROk (RP PvOther)
  | _ => RBad "call of a non-function"
  end.

Lemma aeval_call_eq : forall rh f args kw,
  aeval rh (ECall f args kw) =
  match f with
  | EAttr re m => dor vr <- aeval rh re; dor vs <- aevals rh args; dor kvs <- aevalkw rh kw; method_call vr m vs kvs
  | _ => dor vf <- aeval rh f; dor vs <- aevals rh args; dor kvs <- aevalkw rh kw; call_fun vf kw vs kvs
  end.
Proof.
  (* right to left first: here `aevals rh args` and `aevalkw rh kw` are still found by name; `simpl` then makes
     the left-hand side literally the right-hand side *)
  intros. rewrite <- aeval_inner_evals, <- aeval_inner_kw. simpl. reflexivity.
Qed.

Lemma aeval_tuple_eq : forall rh l,
  aeval rh (ETuple l) =
  (dor vs <- aevals rh l;
   if forallb rinert vs then ROk (RP PvOther) else RBad "a tensor / fiber / payload is stored in a tuple or list").
Proof. intros. simpl. rewrite aeval_inner_evals. reflexivity. Qed.

Lemma aeval_list_eq : forall rh l, aeval rh (EList l) = aeval rh (ETuple l).
Proof. reflexivity. Qed.

Lemma aeval_dict_eq : forall rh l,
  aeval rh (EDict l) =
  (dor vs <- aevaldict rh l;
   if forallb rinert vs then ROk (RP PvOther) else RBad "a tensor / fiber / payload is stored in a dict").
Proof.
  intros. simpl. f_equal. induction l as [|[k v] l IH]; simpl; [reflexivity|]. rewrite IH. reflexivity.
Qed.

Section Mono.
  Variables rS rC : positive -> rres rval.
  Hypothesis Hr : forall x, mono (rS x) (rC x).

  Let P (e : expr) : Prop := mono (aeval rS e) (aeval rC e).

  Lemma aevals_mono_F : forall l, Forall P l -> mono (aevals rS l) (aevals rC l).
  Proof.
    induction 1 as [|e l He _ IH]; simpl; [apply mono_refl|].
    apply mono_bind; [exact He|]. intros v. apply mono_bind_same. exact IH.
  Qed.

  Lemma aevalkw_mono_F : forall l, Forall (fun p => P (snd p)) l -> mono (aevalkw rS l) (aevalkw rC l).
  Proof.
    induction 1 as [|[k e] l He _ IH]; simpl; [apply mono_refl|].
    apply mono_bind; [exact He|]. intros v. apply mono_bind_same. exact IH.
  Qed.

  Lemma aevaldict_mono_F : forall l, Forall (fun p => P (fst p) /\ P (snd p)) l -> mono (aevaldict rS l) (aevaldict rC l).
  Proof.
    induction 1 as [|[k v] l [Hk Hv] _ IH]; simpl; [apply mono_refl|].
    apply mono_bind; [exact Hk|]. intros vk. apply mono_bind; [exact Hv|]. intros vv.
    apply mono_bind_same. exact IH.
  Qed.

  (* arguments and keyword arguments are evaluated in this way at every call-like form *)
  Lemma args_mono_F : forall A args kw (k : list rval -> list (string * rval) -> rres A),
    Forall P args -> Forall (fun p => P (snd p)) kw ->
    mono (dor vs <- aevals rS args; dor kvs <- aevalkw rS kw; k vs kvs)
         (dor vs <- aevals rC args; dor kvs <- aevalkw rC kw; k vs kvs).
  Proof.
    intros A args kw k Ha Hk. apply mono_bind; [apply aevals_mono_F, Ha|]. intros vs.
    apply mono_bind_same. apply aevalkw_mono_F, Hk.
  Qed.

  (* The forms that evaluate one or two subexpressions and go on without the lookup function.  What they go on
     with (k) holds the literal messages; as an argument of these lemmas it is type-checked once, where `simpl`
     would put it into the goal of every later step.  In `aeval_mono` k is read off the form's equation after
     `cbn [aeval]`, which folds the recursive calls back, so that `reflexivity` has nothing to unfold. *)
  Lemma sub1_mono : forall e a (k : rval -> rres rval),
    (forall rh, aeval rh e = dor va <- aeval rh a; k va) -> P a -> P e.
  Proof. intros e a k E Ia. unfold P. rewrite !E. apply mono_bind_same. exact Ia. Qed.

  Lemma sub2_mono : forall e a b (k : rval -> rval -> rres rval),
    (forall rh, aeval rh e = dor va <- aeval rh a; dor vb <- aeval rh b; k va vb) -> P a -> P b -> P e.
  Proof.
    intros e a b k E Ia Ib. unfold P. rewrite !E. apply mono_bind; [exact Ia|]. intros va. apply mono_bind_same. exact Ib.
  Qed.

  Lemma aeval_mono : forall e, mono (aeval rS e) (aeval rC e).
  Proof.
    induction e as [x|z|s|b| |op a b Ia Ib|a Ia|op a b Ia Ib|f args kw If Ire Iargs Ikw|a s Ia|a i Ia Ii
                   |l Il|l Il|l Il|ps b Ib|a x it Ia Iit] using expr_ind_call.
    - exact (Hr x).
    - apply mono_refl.
    - apply mono_refl.
    - apply mono_refl.
    - apply mono_refl.
    - eapply (sub2_mono _ a b); [intros rh; cbn [aeval]; reflexivity|exact Ia|exact Ib].
    - eapply (sub1_mono _ a); [intros rh; cbn [aeval]; reflexivity|exact Ia].
    - eapply (sub2_mono _ a b); [intros rh; cbn [aeval]; reflexivity|exact Ia|exact Ib].
    - (* after this equation the sixteen forms of f are cases of a small match; met by `aeval` itself
         each would unfold it, which is slow *)
      rewrite !aeval_call_eq.
      destruct f; try (apply mono_bind; [exact If|]; intros vf; apply args_mono_F; assumption).
      apply mono_bind; [exact Ire|]. intros vr. apply args_mono_F; assumption.
    - eapply (sub1_mono _ a); [intros rh; cbn [aeval]; reflexivity|exact Ia].
    - eapply (sub2_mono _ a i); [intros rh; cbn [aeval]; reflexivity|exact Ia|exact Ii].
    - rewrite !aeval_tuple_eq. apply mono_bind_same. apply aevals_mono_F, Il.
    - rewrite !aeval_list_eq, !aeval_tuple_eq. apply mono_bind_same. apply aevals_mono_F, Il.
    - rewrite !aeval_dict_eq. apply mono_bind_same. apply aevaldict_mono_F, Il.
    - apply mono_refl.
    - apply mono_refl.
  Qed.

  Lemma args_mono : forall A args kw (k : list rval -> list (string * rval) -> rres A),
    mono (dor vs <- aevals rS args; dor kvs <- aevalkw rS kw; k vs kvs)
         (dor vs <- aevals rC args; dor kvs <- aevalkw rC kw; k vs kvs).
  Proof. intros. apply args_mono_F; apply Forall_forall; intros e _; exact (aeval_mono _). Qed.

  Lemma alloc_form_mono : forall e, mono (alloc_form rS e) (alloc_form rC e).
  Proof.
    intros e. destruct e as [ | | | | | | | |f args kw| | | | | | | ]; try apply mono_refl.
    destruct f as [g| | | | | | | | |re m| | | | | | ]; try apply mono_refl.
    - simpl. apply mono_bind; [apply Hr|]. intros vg.
      destruct vg; try (apply mono_if; [apply args_mono|apply mono_refl]); apply mono_refl.
    - destruct re as [y| | | | | | | | | | | | | | | ]; try apply mono_refl.
      simpl. apply mono_bind; [apply Hr|]. intros vy.
      destruct vy; try (apply mono_if; [apply args_mono|apply mono_refl]); apply mono_refl.
  Qed.

  Lemma assign_sub_chk_mono : forall a i e, mono (assign_sub_chk rS a i e) (assign_sub_chk rC a i e).
  Proof.
    intros. unfold assign_sub_chk. apply mono_bind; [apply aeval_mono|]. intros va.
    apply mono_bind; [apply aeval_mono|]. intros _. apply mono_bind_same. apply aeval_mono.
  Qed.

  Lemma aug_chk_mono : forall op t e, mono (aug_chk rS op t e) (aug_chk rC op t e).
  Proof.
    intros op [x|a i] e; unfold aug_chk; (apply mono_bind; [apply aeval_mono|]; intros v).
    - apply mono_bind_same. apply Hr.
    - apply mono_bind; [apply aeval_mono|]. intros va. apply mono_bind_same. apply aeval_mono.
  Qed.

  Lemma setrank_ids_mono : forall args kw, mono (setrank_ids rS args kw) (setrank_ids rC args kw).
  Proof. intros. apply args_mono. Qed.
End Mono.

Lemma rho_mono : forall S C, le S C -> forall x, mono (rho S x) (rho C x).
Proof.
  intros S C L x r H. unfold rho in *.
  destruct (PM.find x (env C)) as [[mb w]|] eqn:FC; [|discriminate].
  destruct (PM.find x (env S)) as [[ma v]|] eqn:FS; [|exact I].
  pose proof (le_find _ _ _ _ _ _ _ L FS FC) as V. apply vle_iff in V. destruct V as [u|ca cb o Ha Hb|u N].
  - discriminate.
  - rewrite Ha. rewrite Hb in H. injection H as <-. reflexivity.
  - destruct u; [destruct N|congruence ..].
Qed.

Lemma hwf_alloc : forall s o, hwf s -> hwf (snd (alloc o s)).
Proof.
  intros s o H c o' F. simpl in *. destruct (Pos.eq_dec c (next s)) as [->|N]; [lia|].
  rewrite PM.gso in F by exact N. specialize (H _ _ F). lia.
Qed.

Lemma hwf_hset : forall s c o, hwf s -> PM.find c (heap s) <> None -> hwf (hset c o s).
Proof.
  intros s c o H Hc c' o' F. simpl in *. destruct (Pos.eq_dec c' c) as [->|N].
  - destruct (PM.find c (heap s)) as [o''|] eqn:G; [exact (H _ _ G)|destruct (Hc eq_refl)].
  - rewrite PM.gso in F by exact N. exact (H _ _ F).
Qed.

Lemma wf_bind : forall S x v, wf S -> (forall c, v = ATensor c -> PM.find c (heap S) <> None) -> wf (bind x v S).
Proof.
  intros S x v [W1 W2] Hv. split; [|exact W2]. intros x' b c F. simpl in *.
  destruct (Pos.eq_dec x' x) as [->|N].
  - rewrite PM.gss in F. injection F as _ ->. apply Hv. reflexivity.
  - rewrite PM.gso in F by exact N. exact (W1 _ _ _ F).
Qed.

Lemma wf_alloc : forall S o, wf S -> wf (snd (alloc o S)).
Proof.
  intros S o [W1 W2]. split; [|exact (hwf_alloc _ _ W2)]. intros x b c F. simpl in *.
  destruct (Pos.eq_dec c (next S)) as [->|N]; [rewrite PM.gss; discriminate|].
  rewrite PM.gso by exact N. exact (W1 _ _ _ F).
Qed.

Lemma wf_hset : forall S c o, wf S -> PM.find c (heap S) <> None -> wf (hset c o S).
Proof.
  intros S c o [W1 W2] Hc. split; [|exact (hwf_hset _ _ _ W2 Hc)]. intros x b c' F. simpl in *.
  destruct (Pos.eq_dec c' c) as [->|N]; [rewrite PM.gss; discriminate|].
  rewrite PM.gso by exact N. exact (W1 _ _ _ F).
Qed.

Lemma le_bind_gen : forall S C x v w,
  le S C ->
  vle (heap S) (heap C) v w ->
  (forall cs, v = ATensor cs -> PM.find cs (heap S) <> None) ->
  (forall cc, w = ATensor cc -> PM.find cc (heap C) <> None) ->
  (forall cs cc z bz cz bz' cz', v = ATensor cs -> w = ATensor cc ->
      PM.find z (env S) = Some (bz, ATensor cz) -> PM.find z (env C) = Some (bz', ATensor cz') ->
      (cs = cz <-> cc = cz')) ->
  le (bind x v S) (bind x w C).
Proof.
  intros S C x v w [WS [WC [Pw Al]]] V HS HC HA.
  split; [apply wf_bind; assumption|]. split; [apply wf_bind; assumption|]. split.
  - intros x'. simpl. destruct (Pos.eq_dec x' x) as [E|N].
    + subst x'. rewrite !PM.gss. split; [tauto|exact V].
    + rewrite !PM.gso by exact N. apply Pw.
  - intros x1 x2 ba ca ba' ca' bb cb bb' cb'. simpl. intros A1 A2 B1 B2.
    destruct (Pos.eq_dec x1 x) as [E1|N1]; destruct (Pos.eq_dec x2 x) as [E2|N2].
    + subst x1 x2. rewrite PM.gss in A1, A2, B1, B2.
      assert (ca = ca') by congruence. assert (cb = cb') by congruence. tauto.
    + subst x1. rewrite PM.gss in A1, B1. rewrite PM.gso in A2, B2 by exact N2.
      inversion A1. inversion B1. subst. eapply HA; try reflexivity; eassumption.
    + subst x2. rewrite PM.gss in A2, B2. rewrite PM.gso in A1, B1 by exact N1.
      inversion A2. inversion B2. subst.
      pose proof (HA ca' cb' x1 ba ca bb cb eq_refl eq_refl A1 B1) as I.
      split; intros E; symmetry; apply I; symmetry; exact E.
    + rewrite PM.gso in A1, B1 by exact N1. rewrite PM.gso in A2, B2 by exact N2.
      eapply Al; eassumption.
Qed.

Lemma le_bind_nt : forall S C x a, le S C -> nontensor a -> le (bind x a S) (bind x a C).
Proof.
  intros S C x a L N. apply le_bind_gen; try exact L; try (intros c; intros; subst a; destruct N).
  apply vle_iff. constructor. exact N.
Qed.

Lemma le_copy : forall S C x y ma v mb w,
  le S C -> PM.find y (env S) = Some (ma, v) -> PM.find y (env C) = Some (mb, w) ->
  le (bind x v S) (bind x w C).
Proof.
  intros S C x y ma v mb w L FS FC. pose proof L as [WS [WC [_ Al]]].
  apply le_bind_gen; try exact L.
  - exact (le_find _ _ _ _ _ _ _ L FS FC).
  - intros cs ->. exact (proj1 WS _ _ _ FS).
  - intros cc ->. exact (proj1 WC _ _ _ FC).
  - intros cs cc z bz cz bz' cz' -> -> Z1 Z2. eapply Al; eassumption.
Qed.

Lemma le_heaps : forall S C S' C',
  le S C -> wf S' -> wf C' -> env S' = env S -> env C' = env C ->
  (forall x ma ca mb cb o, PM.find x (env S) = Some (ma, ATensor ca) -> PM.find x (env C) = Some (mb, ATensor cb) ->
     PM.find ca (heap S) = Some o -> PM.find cb (heap C) = Some o ->
     exists o', PM.find ca (heap S') = Some o' /\ PM.find cb (heap C') = Some o') ->
  le S' C'.
Proof.
  intros S C S' C' [_ [_ [Pw Al]]] WS WC ES EC H. split; [exact WS|]. split; [exact WC|]. rewrite ES, EC. split; [|exact Al].
  intros x. specialize (Pw x). specialize (H x).
  destruct (PM.find x (env C)) as [[mb w]|]; [|exact Pw]. destruct (PM.find x (env S)) as [[ma v]|]; [|exact Pw].
  destruct Pw as [M V]. split; [exact M|]. eapply vle_heaps; [exact V|].
  intros ca cb o -> ->. apply (H _ _ _ _ _ eq_refl eq_refl).
Qed.

Lemma le_alloc : forall S C o, le S C -> le (snd (alloc o S)) (snd (alloc o C)).
Proof.
  intros S C o L. pose proof L as [WS [WC _]].
  apply (le_heaps S C); try reflexivity; try exact L; try (apply wf_alloc; assumption).
  intros x ma ca mb cb o' _ _ Ha Hb. exists o'. simpl.
  pose proof (proj2 WS _ _ Ha). pose proof (proj2 WC _ _ Hb). rewrite !PM.gso by lia. split; assumption.
Qed.

Lemma le_alloc_bind : forall S C x o,
  le S C -> le (bind x (ATensor (next S)) (snd (alloc o S))) (bind x (ATensor (next C)) (snd (alloc o C))).
Proof.
  intros S C x o L. pose proof L as [[WS1 WS2] [[WC1 WC2] _]].
  apply le_bind_gen; try (apply le_alloc, L).
  - apply vle_iff. apply vle_obj with o; simpl; apply PM.gss.
  - intros cs E. injection E as <-. simpl. rewrite PM.gss. discriminate.
  - intros cs E. injection E as <-. simpl. rewrite PM.gss. discriminate.
  - (* the new object is no object of a variable of S or C *)
    intros cs cc z bz cz bz' cz' Ev Ew Z1 Z2. injection Ev as <-. injection Ew as <-. simpl in Z1, Z2.
    assert (cz < next S)%positive.
    { destruct (PM.find cz (heap S)) as [o'|] eqn:F; [exact (WS2 _ _ F)|destruct (WS1 _ _ _ Z1 F)]. }
    assert (cz' < next C)%positive.
    { destruct (PM.find cz' (heap C)) as [o'|] eqn:F; [exact (WC2 _ _ F)|destruct (WC1 _ _ _ Z2 F)]. }
    split; intros E'; exfalso; lia.
Qed.

Lemma le_hset : forall S C y ma cs mb cc o,
  le S C -> PM.find y (env S) = Some (ma, ATensor cs) -> PM.find y (env C) = Some (mb, ATensor cc) ->
  le (hset cs o S) (hset cc o C).
Proof.
  intros S C y ma cs mb cc o L FS FC. pose proof L as [WS [WC [_ Al]]].
  apply (le_heaps S C); try reflexivity; try exact L.
  - apply wf_hset; [exact WS|exact (proj1 WS _ _ _ FS)].
  - apply wf_hset; [exact WC|exact (proj1 WC _ _ _ FC)].
  - (* x and y share their object in S iff they do in C *)
    intros x max ca mbx cb o' FSx FCx Ha Hb. simpl.
    pose proof (Al x y _ _ _ _ _ _ _ _ FSx FS FCx FC) as I.
    destruct (Pos.eq_dec ca cs) as [E|N].
    + subst ca. assert (cb = cc) by (apply I; reflexivity). subst cb. exists o. rewrite !PM.gss. split; reflexivity.
    + assert (cb <> cc) by (intros E; apply N; apply I; exact E).
      exists o'. rewrite !PM.gso by assumption. split; assumption.
Qed.

Lemma le_bind_all : forall bs S C, le S C -> le (bind_all bs S) (bind_all bs C).
Proof.
  induction bs as [|[x v] bs IH]; intros S C L; simpl; [exact L|].
  apply IH. apply le_bind_nt; [exact L|exact I].
Qed.

Lemma bind_pat_mono : forall p v S C, le S C -> sim le (bind_pat p v S) (bind_pat p v C).
Proof.
  intros p v S C L. unfold bind_pat. apply mono_bind; [apply mono_refl|]. intros bs. apply sim_ret, le_bind_all, L.
Qed.

Lemma for_elem_mono : forall S C e, le S C -> mono (for_elem S e) (for_elem C e).
Proof.
  intros S C e L. unfold for_elem. apply mono_bind_same. apply aeval_mono. apply rho_mono. exact L.
Qed.

Definition assign_gen (s : st) (x : positive) (e : expr) : rres st :=
  dor r <- alloc_form (rho s) e;
  match r with
  | Some o => ROk (bind x (ATensor (next s)) (snd (alloc o s)))
  | None =>
      dor v <- aeval (rho s) e;
      match rv_to_aval v with
      | Some a => ROk (bind x a s)
      | None => RBad "a tensor flows through an untracked expression"
      end
  end.

Lemma assign_name_eq : forall s x e,
  assign_name s x e =
  match e with
  | EName y => match PM.find y (env s) with None => RUnbound y | Some (_, v) => ROk (bind x v s) end
  | _ => assign_gen s x e
  end.
Proof. reflexivity. Qed.

Lemma rv_to_aval_nt : forall v a, rv_to_aval v = Some a -> nontensor a.
Proof. intros [o|p|p|p|g] a H; simpl in H; inversion H; exact I. Qed.

Lemma assign_gen_mono : forall S C x e, le S C -> sim le (assign_gen S x e) (assign_gen C x e).
Proof.
  intros S C x e L. pose proof (rho_mono _ _ L) as Hr. unfold assign_gen.
  apply mono_bind; [apply alloc_form_mono, Hr|]. intros [o|].
  - apply sim_ret, le_alloc_bind, L.
  - apply mono_bind; [apply aeval_mono, Hr|]. intros v. destruct (rv_to_aval v) as [a|] eqn:Ea.
    + apply sim_ret, le_bind_nt; [exact L|exact (rv_to_aval_nt _ _ Ea)].
    + intros b H. discriminate H.
Qed.

Lemma assign_name_mono : forall S C x e, le S C -> sim le (assign_name S x e) (assign_name C x e).
Proof.
  intros S C x e L. rewrite !assign_name_eq. destruct e as [y| | | | | | | | | | | | | | | ]; try (apply assign_gen_mono, L).
  intros C' H. destruct (PM.find y (env C)) as [[mb w]|] eqn:FC; [|discriminate]. injection H as <-.
  destruct (PM.find y (env S)) as [[ma v]|] eqn:FS; [|exact I]. eapply le_copy; eassumption.
Qed.

(* `Y.setRankIds(..)` once the new ids are known.  The messages are variables: every proof step on a goal that
   holds literal strings type-checks them again. *)
Section SetIds.
  Variables w1 w2 w3 w4 : string.

  Definition set_ids (s : st) (y : positive) (ids : list string) : rres st :=
    match PM.find y (env s) with
    | None => RUnbound y
    | Some (_, ATensor c) =>
        match PM.find c (heap s) with
        | Some o =>
            match t_oprov o with
            | User => RBad w1
            | Prog => if Nat.eqb (length ids) (length (t_ids o)) then ROk (hset c (mkT ids Prog (t_dprov o)) s) else RBad w2
            end
        | None => RBad w3
        end
    | Some _ => RBad w4
    end.

  Lemma set_ids_ok : forall s y ids s', set_ids s y ids = ROk s' ->
    exists m c o, PM.find y (env s) = Some (m, ATensor c) /\ PM.find c (heap s) = Some o /\ t_oprov o = Prog /\
                  Nat.eqb (length ids) (length (t_ids o)) = true /\ s' = hset c (mkT ids Prog (t_dprov o)) s.
  Proof.
    intros s y ids s' H. unfold set_ids in H.
    destruct (PM.find y (env s)) as [[m [c|p|p|p|g|]]|]; try discriminate. exists m, c.
    destruct (PM.find c (heap s)) as [o|]; [|discriminate]. exists o.
    destruct (t_oprov o); [discriminate|].
    destruct (Nat.eqb (length ids) (length (t_ids o))); [|discriminate]. injection H as <-. auto 6.
  Qed.

  Lemma set_ids_mono : forall S C y ids, le S C -> sim le (set_ids S y ids) (set_ids C y ids).
  Proof.
    intros S C y ids L C' H. apply set_ids_ok in H. destruct H as [mb [cc [o [FC [HC [EP [EL ->]]]]]]].
    unfold set_ids. destruct (PM.find y (env S)) as [[ma v]|] eqn:FS; [|exact I].
    (* S's y holds the same object as C's *)
    destruct (vle_tensor_r _ _ _ _ (le_find _ _ _ _ _ _ _ L FS FC)) as [cs [o' [-> [Ha Hb]]]].
    rewrite HC in Hb. injection Hb as <-. rewrite Ha, EP, EL. eapply le_hset; eassumption.
  Qed.
End SetIds.

Lemma expr_stmt_eq : exists w1 w2 w3 w4, forall s e,
  expr_stmt s e =
  match setrank_syntax e with
  | Some (y, args, kw) => dor ids <- setrank_ids (rho s) args kw; set_ids w1 w2 w3 w4 s y ids
  | None => dor _ <- aeval (rho s) e; ROk s
  end.
Proof. do 4 eexists. reflexivity. Qed.

Lemma expr_stmt_mono : forall S C e, le S C -> sim le (expr_stmt S e) (expr_stmt C e).
Proof.
  intros S C e L. pose proof (rho_mono _ _ L) as Hr. destruct expr_stmt_eq as [w1 [w2 [w3 [w4 E]]]]. rewrite !E.
  destruct (setrank_syntax e) as [[[y args] kw]|].
  - apply mono_bind; [apply setrank_ids_mono, Hr|]. intros ids. apply set_ids_mono, L.
  - apply mono_bind; [apply aeval_mono, Hr|]. intros _. apply sim_ret, L.
Qed.

Lemma step_mono : forall S C s, le S C -> sim le (step S s) (step C s).
Proof.
  intros S C s L. pose proof (rho_mono _ _ L) as Hr.
  destruct s as [[x|a i] e|op t e|e|p e body|c a b]; simpl.
  - apply assign_name_mono, L.
  - apply mono_bind; [apply assign_sub_chk_mono, Hr|]. intros _. apply sim_ret, L.
  - apply mono_bind; [apply aug_chk_mono, Hr|]. intros _. apply sim_ret, L.
  - apply expr_stmt_mono, L.
  - intros C' H. discriminate H.
  - intros C' H. discriminate H.
Qed.

Lemma chk_inner_block_eq : forall ss c,
  (fix go (c : st) (ss : list stmt) {struct ss} : rres st :=
     match ss with
     | [] => ROk c
     | s :: ss' => dor c' <- chk c s; go c' ss'
     end) c ss = chk_block c ss.
Proof.
  induction ss as [|s ss IH]; intros c; simpl; [reflexivity|].
  destruct (chk c s); simpl; try reflexivity; apply IH.
Qed.

Lemma find_inv_ext : forall run1 run2, (forall i, run1 i = run2 i) ->
  forall k c inv, find_inv run1 k c inv = find_inv run2 k c inv.
Proof.
  intros run1 run2 E. induction k as [|k IH]; intros c inv; simpl; [reflexivity|].
  rewrite E. destruct (run2 inv); try reflexivity.
  destruct (leb c inv && leb a inv); [reflexivity|apply IH].
Qed.

Lemma find_inv_spec : forall run k c inv r, find_inv run k c inv = ROk r ->
  leb c r = true /\ exists c1, run r = ROk c1 /\ leb c1 r = true.
Proof.
  intros run. induction k as [|k IH]; intros c inv r H; simpl in H; [discriminate|].
  destruct (run inv) as [c1|w|x] eqn:R; try discriminate.
  destruct (leb c inv && leb c1 inv) eqn:B.
  - inversion H. subst r. apply andb_true_iff in B. destruct B as [B1 B2]. split; [exact B1|]. eauto.
  - eapply IH. exact H.
Qed.

Definition run_body (p : pat) (el : pval) (body : list stmt) (i : st) : rres st :=
  dor i' <- bind_pat p el i; chk_block i' body.

Lemma chk_for_eq : forall c p e body,
  chk c (SFor p e body) = (dor el <- for_elem c e; find_inv (run_body p el body) rounds c c).
Proof.
  intros c p e body. simpl. destruct (for_elem c e) as [el|w|x]; simpl; reflexivity.
Qed.

Lemma chk_if_eq : forall c cnd a b,
  chk c (SIf cnd a b) =
  (dor _ <- aeval (rho c) cnd; dor ca <- chk_block c a; dor cb <- chk_block c b;
   let j := widen ca cb in
   if leb ca j && leb cb j then ROk j else RBad "the two branches of an if cannot be joined").
Proof. intros. simpl. rewrite !chk_inner_block_eq. reflexivity. Qed.

Lemma chk_simple_eq : forall c s, is_simple s = true -> chk c s = step c s.
Proof. intros c s H. destruct s; try discriminate H; reflexivity. Qed.

Definition outcome_of (r : rres st) (o : outcome) : Prop :=
  match o with OFine s => r = ROk s | OBad w => r = RBad w end.

Lemma sem_simple_inv : forall S s o, is_simple s = true -> sem S s o -> outcome_of (step S s) o.
Proof. intros S s o Hs H. inversion H; subst; try discriminate Hs; assumption. Qed.

Lemma sem_for_inv : forall S p e body o, sem S (SFor p e body) o ->
  (exists w, for_elem S e = RBad w /\ o = OBad w) \/
  (exists el, for_elem S e = ROk el /\ sem_loop S p el body o).
Proof. intros S p e body o H. inversion H; subst; try discriminate; eauto. Qed.

Lemma sem_if_inv : forall S c a b o, sem S (SIf c a b) o ->
  (exists w, aeval (rho S) c = RBad w /\ o = OBad w) \/
  (exists v, aeval (rho S) c = ROk v /\ (sem_block S a o \/ sem_block S b o)).
Proof. intros S c a b o H. inversion H; subst; try discriminate; eauto. Qed.

Definition ok (C : st) (o : outcome) : Prop :=
  match o with OFine s => le s C | OBad _ => False end.

Lemma ok_le : forall C C' o, ok C o -> le C C' -> ok C' o.
Proof. intros C C' [s|w] K L; [exact (le_trans _ _ _ K L)|exact K]. Qed.

Lemma sim_outcome : forall r c C' o, sim le r c -> c = ROk C' -> outcome_of r o -> ok C' o.
Proof. intros r c C' o M Hc Ho. specialize (M _ Hc). destruct o; simpl in *; rewrite Ho in M; exact M. Qed.

Definition sound_stmt (s : stmt) : Prop :=
  forall C C', chk C s = ROk C' -> forall S o, le S C -> sem S s o -> ok C' o.

Definition sound_block (ss : list stmt) : Prop :=
  forall C C', chk_block C ss = ROk C' -> forall S o, le S C -> sem_block S ss o -> ok C' o.

Lemma sound_simple : forall s, is_simple s = true -> sound_stmt s.
Proof.
  intros s Hs C C' H S o L Hsem. rewrite (chk_simple_eq _ _ Hs) in H.
  exact (sim_outcome _ _ _ _ (step_mono _ _ s L) H (sem_simple_inv _ _ _ Hs Hsem)).
Qed.

Lemma sound_loop : forall p el body inv i' c1,
  sound_block body -> bind_pat p el inv = ROk i' -> chk_block i' body = ROk c1 -> le c1 inv ->
  forall S o, sem_loop S p el body o -> le S inv -> ok inv o.
Proof.
  intros p el body inv i' c1 HB Hb Hc Hl S o H.
  induction H as [s p el body|s p el body w Hbind|s p el body s1 w Hbind Hbody|s p el body s1 s2 o Hbind Hbody Hrest IH];
    intros L; [exact L|pose proof (bind_pat_mono p el _ _ L _ Hb) as M; rewrite Hbind in M ..].
  - exact M.
  - exact (HB _ _ Hc _ _ M Hbody).
  - apply IH; try assumption. eapply le_trans; [exact (HB _ _ Hc _ _ M Hbody)|exact Hl].
Qed.

Lemma chk_sound_all : (forall s, sound_stmt s) /\ (forall ss, sound_block ss).
Proof.
  apply stmt_block_ind; try (intros; apply sound_simple; reflexivity).
  - (* for: find_inv returned an invariant C' of the body that describes C, hence S *)
    intros p e body HB C C' H S o L Hsem. rewrite chk_for_eq in H. apply rbind_ok in H. destruct H as [el [He H]].
    apply find_inv_spec in H. destruct H as [Hin [c1 [Hrun Hc1]]].
    unfold run_body in Hrun. apply rbind_ok in Hrun. destruct Hrun as [i' [Hb Hc]].
    apply leb_sound in Hin. apply leb_sound in Hc1.
    pose proof (for_elem_mono _ _ e L el He) as M.
    apply sem_for_inv in Hsem. destruct Hsem as [[w [E ->]]|[el0 [E Hloop]]]; rewrite E in M; [exact M|]. subst el0.
    exact (sound_loop _ _ _ _ _ _ HB Hb Hc Hc1 _ _ Hloop (le_trans _ _ _ L Hin)).
  - (* if: both branches end inside the join *)
    intros cnd a b Ha Hb C C' H S o L Hsem. rewrite chk_if_eq in H.
    apply rbind_ok in H. destruct H as [v [Hv H]].
    apply rbind_ok in H. destruct H as [ca [Hca H]].
    apply rbind_ok in H. destruct H as [cb [Hcb H]]. simpl in H.
    destruct (leb ca (widen ca cb) && leb cb (widen ca cb)) eqn:B; [|discriminate].
    injection H as <-. apply andb_true_iff in B. destruct B as [B1 B2].
    apply leb_sound in B1. apply leb_sound in B2.
    pose proof (aeval_mono _ _ (rho_mono _ _ L) cnd v Hv) as M.
    apply sem_if_inv in Hsem. destruct Hsem as [[w [E ->]]|[v0 [_ [Hs|Hs]]]]; [rewrite E in M; exact M| |].
    + exact (ok_le _ _ _ (Ha _ _ Hca _ _ L Hs) B1).
    + exact (ok_le _ _ _ (Hb _ _ Hcb _ _ L Hs) B2).
  - intros C C' H S o L Hsem. injection H as <-. inversion Hsem; subst. exact L.
  - intros s ss Hs Hss C C' H S o L Hsem. simpl in H. apply rbind_ok in H. destruct H as [C1 [H1 H2]].
    inversion Hsem as [|? ? ? S1 ? Hs1 Hss1|? ? ? ? Hs1]; subst.
    + exact (Hss _ _ H2 _ _ (Hs _ _ H1 _ _ L Hs1) Hss1).
    + exact (Hs _ _ H1 _ _ L Hs1).
Qed.

Theorem chk_sound : forall s, sound_stmt s.
Proof. exact (proj1 chk_sound_all). Qed.

Theorem chk_block_sound : forall ss C C', chk_block C ss = ROk C' -> forall S, le S C ->
  (forall w, ~ sem_block S ss (OBad w)) /\ (forall S', sem_block S ss (OFine S') -> le S' C').
Proof. intros ss C C' H S L. split; [intros w|intros S']; exact (proj2 chk_sound_all ss _ _ H _ _ L). Qed.

Definition keeps (s s' : st) : Prop :=
  hwf s -> hwf s' /\ (forall l o, PM.find l (heap s) = Some o -> t_oprov o = User -> PM.find l (heap s') = Some o).

Lemma keeps_refl : forall s, keeps s s.
Proof. intros s H. split; [exact H|auto]. Qed.

Lemma keeps_trans : forall a b c, keeps a b -> keeps b c -> keeps a c.
Proof.
  intros a b c H1 H2 Ha. destruct (H1 Ha) as [Hb K1]. destruct (H2 Hb) as [Hc K2]. split; [exact Hc|].
  intros l o F U. apply K2; [apply K1; assumption|exact U].
Qed.

Lemma keeps_same_heap : forall s s', heap s' = heap s -> next s' = next s -> keeps s s'.
Proof.
  intros s s' Eh En H. split.
  - intros c o F. rewrite Eh in F. rewrite En. eapply H. exact F.
  - intros l o F _. rewrite Eh. exact F.
Qed.

Lemma keeps_alloc_bind : forall s x v o, keeps s (bind x v (snd (alloc o s))).
Proof.
  intros s x v o H. split; [exact (hwf_alloc _ _ H)|].
  intros l o' F _. simpl. pose proof (H _ _ F). rewrite PM.gso by lia. exact F.
Qed.

Lemma keeps_hset : forall s c o o', PM.find c (heap s) = Some o -> t_oprov o = Prog -> keeps s (hset c o' s).
Proof.
  intros s c o o' HC EP W. split; [apply hwf_hset; [exact W|rewrite HC; discriminate]|].
  intros l o1 F U. simpl. destruct (Pos.eq_dec l c) as [->|N].
  - rewrite HC in F. injection F as <-. rewrite EP in U. discriminate.
  - rewrite PM.gso by exact N. exact F.
Qed.

Lemma bind_all_heap : forall bs s, heap (bind_all bs s) = heap s /\ next (bind_all bs s) = next s.
Proof.
  induction bs as [|b bs IH]; intros s; simpl; [split; reflexivity|].
  destruct (IH (bind (fst b) (AP (snd b)) s)) as [E1 E2]. rewrite E1, E2. split; reflexivity.
Qed.

Lemma bind_pat_keeps : forall p v s s', bind_pat p v s = ROk s' -> keeps s s'.
Proof.
  intros p v s s' H. unfold bind_pat in H. apply rbind_ok in H. destruct H as [bs [_ H]]. inversion H.
  destruct (bind_all_heap bs s) as [E1 E2]. apply keeps_same_heap; assumption.
Qed.

Lemma assign_gen_keeps : forall s x e s', assign_gen s x e = ROk s' -> keeps s s'.
Proof.
  intros s x e s' H. unfold assign_gen in H. apply rbind_ok in H. destruct H as [[o|] [_ H]].
  - inversion H. apply keeps_alloc_bind.
  - apply rbind_ok in H. destruct H as [v [_ H]]. destruct (rv_to_aval v); [|discriminate].
    inversion H. apply keeps_same_heap; reflexivity.
Qed.

Lemma assign_name_keeps : forall s x e s', assign_name s x e = ROk s' -> keeps s s'.
Proof.
  intros s x e s' H. rewrite assign_name_eq in H.
  destruct e as [y| | | | | | | | | | | | | | | ]; try exact (assign_gen_keeps _ _ _ _ H).
  destruct (PM.find y (env s)) as [[m v]|]; [|discriminate]. inversion H. apply keeps_same_heap; reflexivity.
Qed.

Lemma step_keeps : forall s c s', step s c = ROk s' -> keeps s s'.
Proof.
  intros s c s' H. destruct c as [[x|a i] e|op t e|e|p e body|cnd a b]; simpl in H; try discriminate.
  - exact (assign_name_keeps _ _ _ _ H).
  - apply rbind_ok in H. destruct H as [u [_ H]]. inversion H. apply keeps_refl.
  - apply rbind_ok in H. destruct H as [u [_ H]]. inversion H. apply keeps_refl.
  - destruct expr_stmt_eq as [w1 [w2 [w3 [w4 E]]]]. rewrite E in H.
    destruct (setrank_syntax e) as [[[y args] kw]|]; apply rbind_ok in H; destruct H as [u [_ H]].
    + apply set_ids_ok in H. destruct H as [m [c [o [_ [HC [EP [_ ->]]]]]]]. exact (keeps_hset _ _ _ _ HC EP).
    + inversion H. apply keeps_refl.
Qed.

Scheme sem_mut := Minimality for sem Sort Prop
  with sem_loop_mut := Minimality for sem_loop Sort Prop
  with sem_block_mut := Minimality for sem_block Sort Prop.
Combined Scheme sem_mutind from sem_mut, sem_loop_mut, sem_block_mut.

Definition fine_keeps (s : st) (o : outcome) : Prop :=
  match o with OFine s' => keeps s s' | OBad _ => True end.

Lemma sem_keeps_all :
  (forall s c o, sem s c o -> fine_keeps s o) /\
  (forall s p el body o, sem_loop s p el body o -> fine_keeps s o) /\
  (forall s ss o, sem_block s ss o -> fine_keeps s o).
Proof.
  apply sem_mutind; simpl; intros; try exact I; try assumption; try apply keeps_refl.
  - eapply step_keeps. eassumption.
  - destruct o; [|exact I]. eapply keeps_trans; [eapply bind_pat_keeps; eassumption|].
    eapply keeps_trans; eassumption.
  - destruct o; [|exact I]. eapply keeps_trans; eassumption.
Qed.

Theorem sem_frame : forall s ss s', sem_block s ss (OFine s') -> hwf s ->
  forall l o, PM.find l (heap s) = Some o -> t_oprov o = User -> PM.find l (heap s') = Some o.
Proof. intros s ss s' H W. exact (proj2 (proj2 (proj2 sem_keeps_all) _ _ _ H W)). Qed.

Definition all_user (s : st) : Prop := forall l o, PM.find l (heap s) = Some o -> t_oprov o = User.

Lemma init_all_user : forall c, all_user (init c).
Proof.
  intros c. unfold init. apply fold_left_invariant.
  - intros s i _ Hs l o F. unfold bind, alloc in F. simpl in F.
    destruct (Pos.eq_dec l (next s)) as [E|N].
    + subst l. rewrite PM.gss in F. inversion F. reflexivity.
    + rewrite PM.gso in F by exact N. eapply Hs. exact F.
  - apply fold_left_invariant; [intros s x _ Hs; exact Hs|].
    apply fold_left_invariant; [intros s x _ Hs; exact Hs|].
    intros l o F. simpl in F. rewrite PM.gempty in F. discriminate.
Qed.

Lemma name_okb_sound : forall S C n, le S C -> name_okb C n = true -> name_ok S n.
Proof.
  intros S C n L H b v F. unfold name_okb in H.
  destruct (PM.find (fst n) (env C)) as [[mb w]|] eqn:FC; [|rewrite (le_absent _ _ _ L FC) in F; discriminate F].
  destruct w as [cb|p|p|p|g|]; try discriminate.
  destruct (PM.find cb (heap C)) as [o|] eqn:HC; [|discriminate].
  apply andb_true_iff in H. destruct H as [H1 H2]. apply String.eqb_eq in H1.
  destruct (vle_tensor_r _ _ _ _ (le_find _ _ _ _ _ _ _ L F FC)) as [ca [o' [-> [Ha Hb]]]].
  rewrite HC in Hb. injection Hb as <-.
  exists ca, o. split; [reflexivity|]. split; [exact Ha|]. split; [exact H1|].
  intros l El. rewrite El in H2. apply strs_eqb_eq. exact H2.
Qed.

Lemma required_okb_sound : forall S C x, le S C -> required_okb C x = true -> PM.find x (env S) <> None.
Proof.
  intros S C x L H. unfold required_okb in H.
  destruct (PM.find x (env C)) as [[[|] w]|] eqn:FC; try discriminate. exact (le_must _ _ _ _ L FC).
Qed.

Theorem rankty_sound : forall c p, rankty_ok c p = true ->
  (forall w, ~ sem_block (init c) p (OBad w)) /\
  (forall s', sem_block (init c) p (OFine s') -> post c s').
Proof.
  intros c p H. unfold rankty_ok in H. apply andb_true_iff in H. destruct H as [W H].
  apply wfb_wf in W.
  destruct (chk_block (init c) p) as [C'|w|x] eqn:E; try discriminate.
  apply andb_true_iff in H. destruct H as [HN HR]. rewrite forallb_forall in HN, HR.
  destruct (chk_block_sound p _ _ E _ (le_refl _ W)) as [NB F]. split; [exact NB|].
  intros s' Hs. pose proof (F _ Hs) as L. split; [|split].
  - intros n In. eapply name_okb_sound; [exact L|]. apply HN. exact In.
  - intros x In. eapply required_okb_sound; [exact L|]. apply HR. exact In.
  - intros l o Fl. eapply sem_frame; [exact Hs|exact (proj2 W)|exact Fl|eapply init_all_user; exact Fl].
Qed.

Lemma run_inner_block_eq : forall n ss c,
  (fix go (c : st) (ss : list stmt) {struct ss} : rres st :=
     match ss with
     | [] => ROk c
     | s :: ss' => dor c' <- run_path n c s; go c' ss'
     end) c ss = run_path_block n c ss.
Proof.
  induction ss as [|s ss IH]; intros c; simpl; [reflexivity|].
  destruct (run_path n c s); simpl; try reflexivity; apply IH.
Qed.

Fixpoint loop_path (run : st -> rres st) (k : nat) (c : st) : rres st :=
  match k with
  | O => ROk c
  | S k' => dor c2 <- run c; loop_path run k' c2
  end.

Lemma run_loop_eq : forall n p el body k c,
  (fix it (k : nat) (c : st) {struct k} : rres st :=
     match k with
     | O => ROk c
     | S k' =>
         dor c1 <- bind_pat p el c;
         dor c2 <- (fix go (c0 : st) (ss : list stmt) {struct ss} : rres st :=
                      match ss with
                      | [] => ROk c0
                      | s :: ss' => dor c' <- run_path n c0 s; go c' ss'
                      end) c1 body;
         it k' c2
     end) k c =
  loop_path (fun c => dor c1 <- bind_pat p el c; run_path_block n c1 body) k c.
Proof.
  intros n p el body. induction k as [|k IH]; intros c; simpl; [reflexivity|].
  destruct (bind_pat p el c) as [c1|w|x]; simpl; try reflexivity.
  rewrite run_inner_block_eq. destruct (run_path_block n c1 body); simpl; try reflexivity. apply IH.
Qed.

Lemma run_path_for_eq : forall n c p e body,
  run_path n c (SFor p e body) =
  (dor el <- for_elem c e; loop_path (fun c => dor c1 <- bind_pat p el c; run_path_block n c1 body) n c).
Proof.
  intros n c p e body. simpl. destruct (for_elem c e) as [el|w|x]; simpl; try reflexivity.
  apply run_loop_eq.
Qed.

Lemma run_path_if_eq : forall n c cnd a b,
  run_path n c (SIf cnd a b) = (dor _ <- aeval (rho c) cnd; run_path_block n c a).
Proof. intros. simpl. rewrite run_inner_block_eq. reflexivity. Qed.

Definition path_stmt (n : nat) (s : stmt) : Prop := forall c c', run_path n c s = ROk c' -> sem c s (OFine c').

Definition path_block (n : nat) (ss : list stmt) : Prop :=
  forall c c', run_path_block n c ss = ROk c' -> sem_block c ss (OFine c').

Lemma path_loop : forall n p el body, path_block n body ->
  forall k c c', loop_path (fun c => dor c1 <- bind_pat p el c; run_path_block n c1 body) k c = ROk c' ->
  sem_loop c p el body (OFine c').
Proof.
  intros n p el body HB. induction k as [|k IH]; intros c c' H; simpl in H.
  - inversion H. constructor.
  - apply rbind_ok in H. destruct H as [c2 [H1 H2]]. apply rbind_ok in H1. destruct H1 as [c1 [Hb Hr]].
    eapply loop_iter; [exact Hb|exact (HB _ _ Hr)|exact (IH _ _ H2)].
Qed.

Lemma run_path_all : forall n, (forall s, path_stmt n s) /\ (forall ss, path_block n ss).
Proof.
  intros n. apply stmt_block_ind; try (intros; intros c c' H; apply sem_step_ok; [reflexivity|exact H]).
  - intros p e body HB c c' H. rewrite run_path_for_eq in H. apply rbind_ok in H. destruct H as [el [He H]].
    eapply sem_for; [exact He|]. eapply path_loop; eassumption.
  - intros cnd a b Ha _ c c' H. rewrite run_path_if_eq in H. apply rbind_ok in H. destruct H as [v [Hv H]].
    eapply sem_if_then; [exact Hv|exact (Ha _ _ H)].
  - intros c c' H. inversion H. constructor.
  - intros s ss Hs Hss c c' H. simpl in H. apply rbind_ok in H. destruct H as [c1 [H1 H2]].
    econstructor; [exact (Hs _ _ H1)|exact (Hss _ _ H2)].
Qed.

Theorem run_path_sem : forall n s, path_stmt n s.
Proof. intros n. exact (proj1 (run_path_all n)). Qed.

Theorem run_path_block_sem : forall n ss c c', run_path_block n c ss = ROk c' -> sem_block c ss (OFine c').
Proof. intros n. exact (proj2 (run_path_all n)). Qed.

(* on straight-line code the checker IS the semantics: it rejects nothing spuriously *)
Theorem straight_complete : forall ss c w,
  forallb is_simple ss = true -> chk_block c ss = RBad w -> sem_block c ss (OBad w).
Proof.
  induction ss as [|s ss IH]; intros c w Hs H; simpl in *; [discriminate|].
  apply andb_true_iff in Hs. destruct Hs as [H1 H2].
  rewrite (chk_simple_eq _ _ H1) in H. destruct (step c s) as [c1|w'|x] eqn:St; simpl in H; try discriminate.
  - eapply block_cons; [apply sem_step_ok; [exact H1|exact St]|]. apply IH; assumption.
  - inversion H. subst w'. apply block_bad. apply sem_step_bad; assumption.
Qed.

Lemma bad_prefix : forall l1 l2 c w, sem_block c l1 (OBad w) -> sem_block c (l1 ++ l2) (OBad w).
Proof.
  induction l1 as [|s l1 IH]; intros l2 c w H; inversion H; subst; simpl.
  - eapply block_cons; [eassumption|]. apply IH. assumption.
  - apply block_bad. assumption.
Qed.

Theorem straight_complete_prefix : forall n ss c w,
  forallb is_simple (firstn n ss) = true -> chk_block c (firstn n ss) = RBad w -> sem_block c ss (OBad w).
Proof.
  intros n ss c w H1 H2. rewrite <- (firstn_skipn n ss). apply bad_prefix. apply straight_complete; assumption.
Qed.

Lemma name_ok_okb : forall s n, name_ok s n -> name_okb s n = true.
Proof.
  intros s n H. unfold name_okb. destruct (PM.find (fst n) (env s)) as [[b v]|] eqn:F; [|reflexivity].
  destruct (H b v F) as [c [o [Hv [Hc [Hs He]]]]]. subst v. rewrite Hc. rewrite Hs, String.eqb_refl. simpl.
  destruct (snd (snd n)) as [l|]; [|reflexivity]. rewrite (He l eq_refl). apply strs_eqb_eq. reflexivity.
Qed.

Lemma post_names_okb : forall c s, post c s -> forallb (name_okb s) (x_names c) = true.
Proof. intros c s [N _]. apply forallb_forall. intros n In. apply name_ok_okb. apply N. exact In. Qed.
