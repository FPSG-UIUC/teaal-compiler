(* C13: the blocks that Fusion.add_einsum (teaal/ir/fusion.py, Model/Fusion.v) builds are `legal`
   (`fusion_legal`), by an invariant of the state machine (`Inv`); `legal_blocks_b`, run on the compiler's
   own answer, decides `legal`. *)
From Coq Require Import String List Bool.
Require Import TV.Model.Fusion TV.Proofs.ListFacts.
Import ListNotations.

Definition disj (a b : list string) : Prop := forall c, In c a -> In c b -> False.
Definition cdisj (e1 e2 : einfo) : Prop := disj (e_comps e1) (e_comps e2).

Definition same_cp (b : list einfo) : Prop :=
  forall e1 e2, In e1 b -> In e2 b -> e_config e1 = e_config e2 /\ e_prefix e1 = e_prefix e2.

Definition block_ok (b : list einfo) : Prop := same_cp b /\ ForallOrdPairs cdisj b.

(* The property: every Einsum exactly once, in order, in contiguous non-empty groups;
   inside a group same configuration, same temporal prefix, pairwise disjoint components. *)
Definition legal (h : list einfo) (bs : list (list einfo)) : Prop :=
  concat bs = h /\ Forall (fun b => b <> [] /\ block_ok b) bs.

Lemma strs_eqb_eq a b : strs_eqb a b = true <-> a = b.
Proof. apply (list_eqb_iff String.eqb); [apply String.eqb_eq|intros [|] [|]; reflexivity]. Qed.

Lemma mem_In x l : mem x l = true <-> In x l.
Proof. apply existsb_eqb_In. intros y. rewrite String.eqb_eq. split; congruence. Qed.

Lemma disjointb_disj a b : disjointb a b = true <-> disj a b.
Proof.
  unfold disjointb, disj. rewrite forallb_forall. split.
  - intros H c Ha Hb. specialize (H c Ha). apply mem_In in Hb. rewrite Hb in H. discriminate.
  - intros H c Ha. destruct (mem c b) eqn:E; [|reflexivity]. apply mem_In in E. exfalso. eauto.
Qed.

Lemma FOP_snoc {A} (R : A -> A -> Prop) l a :
  ForallOrdPairs R l -> (forall x, In x l -> R x a) -> ForallOrdPairs R (l ++ [a]).
Proof.
  induction 1 as [|x l Hx Hl IH]; intros Ha; simpl.
  - constructor; constructor.
  - constructor.
    + apply Forall_app. split; [exact Hx|]. constructor; [apply Ha; left; reflexivity|constructor].
    + apply IH. intros y Hy. apply Ha. right. exact Hy.
Qed.

Lemma same_cp_via e b :
  (forall e', In e' b -> e_config e' = e_config e /\ e_prefix e' = e_prefix e) -> same_cp b.
Proof. intros H e1 e2 H1 H2. destruct (H e1 H1), (H e2 H2). split; congruence. Qed.

Lemma block_ok_one e : block_ok [e].
Proof.
  split; [|constructor; constructor]. apply (same_cp_via e). intros e' [<-|[]]. split; reflexivity.
Qed.

Lemma block_ok_snoc b e :
  ForallOrdPairs cdisj b ->
  (forall e', In e' b -> e_config e' = e_config e /\ e_prefix e' = e_prefix e /\ cdisj e' e) ->
  block_ok (b ++ [e]).
Proof.
  intros Hd H. split.
  - apply (same_cp_via e). intros e' He'. apply in_app_iff in He' as [He'|[<-|[]]]; [|split; reflexivity].
    destruct (H e' He') as [A [B _]]. split; assumption.
  - apply FOP_snoc; [exact Hd|]. intros e' He'. apply H, He'.
Qed.

Lemma legal_snoc h bs b :
  legal h (bs ++ [b]) <-> exists h', h = h' ++ b /\ legal h' bs /\ b <> [] /\ block_ok b.
Proof.
  unfold legal. rewrite concat_app, Forall_app. simpl. rewrite app_nil_r. split.
  - intros [Hc [Hf Hb]]. exists (concat bs). inversion Hb; subst. tauto.
  - intros [h' [-> [[<- Hf] Hb]]]. repeat split; [exact Hf|]. constructor; [exact Hb|constructor].
Qed.

Lemma chron_cons_block s b bs : f_blocks s = b :: bs ->
  concat (chron s) = concat (rev (map (@rev einfo) bs)) ++ rev b.
Proof. intros H. unfold chron. rewrite H. simpl. rewrite concat_app. simpl. rewrite app_nil_r. reflexivity. Qed.

Record Inv (s : fstate) (h : list einfo) : Prop := {
  inv_legal : legal h (chron s);
  inv_head : match f_blocks s with
             | [] => f_config s = None
             | b :: _ => forall e, In e b ->
                 f_config s = Some (e_config e) /\ f_fused s = e_prefix e /\ incl (e_comps e) (f_used s)
             end }.

Lemma Inv_init : Inv finit [].
Proof. split; simpl; [split; [reflexivity|constructor]|reflexivity]. Qed.

Lemma fusable_spec s e : fusable s e = true ->
  f_config s = Some (e_config e) /\ e_prefix e = f_fused s /\ disj (f_used s) (e_comps e).
Proof.
  unfold fusable. intros H. apply andb_true_iff in H as [H H3]. apply andb_true_iff in H as [H1 H2].
  split; [|split].
  - unfold cfg_eqb in H1. destruct (f_config s); [|discriminate]. apply String.eqb_eq in H1. congruence.
  - apply strs_eqb_eq. exact H2.
  - apply disjointb_disj. exact H3.
Qed.

(* chronologically a step either extends the last block at its end or appends the block [e] *)
Lemma Inv_step s h e : Inv s h -> Inv (fstep s e) (h ++ [e]).
Proof.
  intros [HL Hh]. unfold fstep, chron in *. destruct (fusable s e) eqn:Hf.
  - apply fusable_spec in Hf as [F1 [F2 F3]].
    destruct (f_blocks s) as [|b bs]; [rewrite Hh in F1; discriminate|]. simpl in HL.
    apply legal_snoc in HL as [h' [-> [HL [_ Hok]]]]. split; simpl.
    + apply legal_snoc. exists h'. split; [symmetry; apply app_assoc|]. split; [exact HL|].
      split; [intros E; apply app_eq_nil in E as [_ E]; discriminate|].
      apply block_ok_snoc; [apply Hok|]. intros e' He'. apply in_rev in He'. destruct (Hh e' He') as [A [B C]].
      split; [congruence|]. split; [congruence|]. intros c Hc1 Hc2. apply (F3 c); [apply C; exact Hc1|exact Hc2].
    + intros e' [<-|He']; [|destruct (Hh e' He') as [A [B C]]].
      * split; [exact F1|]. split; [congruence|]. apply incl_appr, incl_refl.
      * split; [exact A|]. split; [exact B|]. apply incl_appl, C.
  - split; simpl.
    + apply legal_snoc. exists h. split; [reflexivity|]. split; [exact HL|]. split; [discriminate|apply block_ok_one].
    + intros e' [<-|[]]. split; [reflexivity|]. split; [reflexivity|apply incl_refl].
Qed.

Lemma Inv_run h : Inv (frun h) h.
Proof. exact (fold_left_hist_invariant fstep Inv Inv_step h finit [] Inv_init). Qed.

Theorem fusion_legal : forall h, legal h (chron (frun h)).
Proof. intros h. apply Inv_run. Qed.

Corollary blocks_flatten h : concat (get_blocks (frun h)) = map e_name h.
Proof.
  unfold get_blocks. rewrite <- concat_map. destruct (fusion_legal h) as [H _]. rewrite H. reflexivity.
Qed.

Lemma blocks_ok h b : In b (chron (frun h)) -> b <> [] /\ block_ok b.
Proof. revert b. apply Forall_forall. apply fusion_legal. Qed.

Corollary blocks_same_config_prefix h b e1 e2 :
  In b (chron (frun h)) -> In e1 b -> In e2 b -> e_config e1 = e_config e2 /\ e_prefix e1 = e_prefix e2.
Proof. intros Hb. apply (blocks_ok h b Hb). Qed.

Corollary blocks_disjoint_components h b :
  In b (chron (frun h)) -> ForallOrdPairs cdisj b.
Proof. intros Hb. apply (blocks_ok h b Hb). Qed.

(* `fstep_pinned`, the compiler before finding F1 was fixed (components_used not reset at a new block),
   violates it *)
Open Scope string_scope.
Lemma pinned_components_refuted :
  exists h, get_blocks (frun_pinned h) = [["T"; "Z"]] /\ ~ legal h (chron (frun_pinned h)).
Proof.
  exists [mkE "T" "configA" ["M"; "K"] ["FPMul0"]; mkE "Z" "configA" ["M"; "K"] ["FPMul0"]]. split; [vm_compute; reflexivity|].
  intros [_ H]. vm_compute in H. inversion H as [|b bs [_ [_ Hd]] _]; subst.
  inversion Hd as [|x l Hx _]; subst. inversion Hx as [|y l' Hy _]; subst.
  apply (Hy "FPMul0"); left; reflexivity.
Qed.
Close Scope string_scope.

Lemma take_block_spec n h b r : take_block n h = Some (b, r) -> h = b ++ r.
Proof.
  revert h b r. induction n as [|n IH]; intros h b r H; simpl in H.
  - inversion H; subst. reflexivity.
  - destruct h as [|e h]; [discriminate|]. destruct (take_block n h) as [[b' r']|] eqn:E; [|discriminate].
    inversion H; subst. rewrite (IH _ _ _ E). reflexivity.
Qed.

Lemma take_block_app b r : take_block (length b) (b ++ r) = Some (b, r).
Proof. induction b as [|e b IH]; simpl; [reflexivity|]. rewrite IH. reflexivity. Qed.

Lemma pair_disjb_iff b : pair_disjb b = true <-> ForallOrdPairs cdisj b.
Proof.
  induction b as [|e b IH]; simpl; [split; [constructor|reflexivity]|].
  rewrite andb_true_iff, forallb_forall, IH. setoid_rewrite disjointb_disj. rewrite <- Forall_forall. split.
  - intros [H1 H2]. constructor; assumption.
  - intros H. inversion H; subst. split; assumption.
Qed.

Lemma same_cfg_prefixb_iff b : same_cfg_prefixb b = true <-> b <> [] /\ same_cp b.
Proof.
  destruct b as [|e b]; simpl; [split; [discriminate|intros [H _]; congruence]|].
  rewrite forallb_forall. setoid_rewrite andb_true_iff. setoid_rewrite String.eqb_eq. setoid_rewrite strs_eqb_eq. split.
  - intros H. split; [discriminate|]. apply (same_cp_via e).
    intros e' [<-|He']; [split; reflexivity|]. destruct (H e' He'). split; congruence.
  - intros [_ H] e' He'. apply H; [left; reflexivity|right; exact He'].
Qed.

Lemma block_okb_iff b : block_okb b = true <-> b <> [] /\ block_ok b.
Proof. unfold block_okb, block_ok. rewrite andb_true_iff, same_cfg_prefixb_iff, pair_disjb_iff. tauto. Qed.

Theorem legal_blocks_b_sound : forall bs h, legal_blocks_b h bs = true ->
  exists ibs, map (map e_name) ibs = bs /\ legal h ibs.
Proof.
  induction bs as [|names bs IH]; intros h H; simpl in H.
  - destruct h; [|discriminate]. exists []. split; [reflexivity|]. split; [reflexivity|constructor].
  - destruct (take_block (length names) h) as [[b r]|] eqn:E; [|discriminate].
    apply andb_true_iff in H as [H H3]. apply andb_true_iff in H as [H1 H2].
    apply strs_eqb_eq in H1. apply block_okb_iff in H2. apply take_block_spec in E.
    destruct (IH r H3) as [ibs [Hm [Hc Hf]]].
    exists (b :: ibs). split; [simpl; congruence|]. split; [simpl; congruence|constructor; assumption].
Qed.

(* completeness: the checker accepts every legal block structure, so it never
   raises an alarm on a compiler whose blocks satisfy the property *)
Theorem legal_blocks_b_complete : forall ibs h, legal h ibs -> legal_blocks_b h (map (map e_name) ibs) = true.
Proof.
  induction ibs as [|b ibs IH]; intros h [Hc Hf]; simpl in *.
  - subst. reflexivity.
  - inversion Hf as [|b' l' Hb Hf']; subst. rewrite map_length, take_block_app.
    rewrite (proj2 (strs_eqb_eq _ _) eq_refl), (proj2 (block_okb_iff b) Hb). apply IH. split; [reflexivity|exact Hf'].
Qed.

Lemma temporal_prefix_spec loop space :
  exists rest, loop = temporal_prefix loop space ++ rest /\
    (forall r, In r (temporal_prefix loop space) -> ~ In r space) /\
    match rest with [] => True | r :: _ => In r space end.
Proof.
  induction loop as [|r loop IH]; simpl.
  - exists []. split; [reflexivity|]. split; [intros r []|exact I].
  - destruct (mem r space) eqn:E.
    + exists (r :: loop). split; [reflexivity|]. split; [intros x []|apply mem_In; exact E].
    + destruct IH as [rest [A [B C]]]. exists rest. split; [simpl; congruence|]. split; [|exact C].
      intros x [Hx|Hx]; [subst; intro H; apply mem_In in H; congruence|apply B; exact Hx].
Qed.
