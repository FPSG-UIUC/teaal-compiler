(* Arithmetic of shape partitioning (C02, C04): upper coordinates, n-way steps,
   stacks of levels, halos.  All statements are over Z with no bound on sizes. *)
From Coq Require Import ZArith Lia List.
Import ListNotations.
Open Scope Z_scope.

(* floor division by s > 0 is the upper adjoint of multiplication by s; everything below
   that mentions a quotient is read off from these two equivalences by lia *)
Lemma div_ge_iff s a k : 0 < s -> (k <= a / s <-> s * k <= a).
Proof.
  intros Hs. split; intros H.
  - apply Z.le_trans with (s * (a / s)); [apply Z.mul_le_mono_nonneg_l; lia|apply Z.mul_div_le; exact Hs].
  - apply Z.div_le_lower_bound; assumption.
Qed.

Lemma div_lt_iff s a k : 0 < s -> (a / s < k <-> a < s * k).
Proof. intros Hs. pose proof (div_ge_iff s a k Hs). lia. Qed.

Definition upper (s c : Z) : Z := s * (c / s).

Lemma upper_eq_iff s c k : 0 < s -> (upper s c = s * k <-> s * k <= c < s * k + s).
Proof.
  intros Hs. unfold upper. pose proof (div_ge_iff s c k Hs). pose proof (div_lt_iff s c (k + 1) Hs).
  rewrite Z.mul_cancel_l by lia. lia.
Qed.

Lemma upper_covers s c : 0 < s -> upper s c <= c < upper s c + s.
Proof. intros Hs. apply upper_eq_iff; [exact Hs|reflexivity]. Qed.

Lemma upper_unique s c p : 0 < s -> (exists k, p = s * k) -> p <= c < p + s -> p = upper s c.
Proof. intros Hs [k ->] H. symmetry. apply upper_eq_iff; assumption. Qed.

Lemma upper_mono s c d : 0 < s -> c <= d -> upper s c <= upper s d.
Proof. unfold upper. intros. apply Z.mul_le_mono_nonneg_l; [lia|]. apply Z.div_le_mono; lia. Qed.

Lemma upper_nonneg s c : 0 < s -> 0 <= c -> 0 <= upper s c.
Proof. unfold upper. intros. apply Z.mul_nonneg_nonneg; [lia|]. apply Z.div_pos; lia. Qed.

(* every coordinate belongs to exactly one partition: no element is lost, none is met twice *)
Theorem split_exactly_one s c : 0 < s ->
  exists! p, (exists k, p = s * k) /\ p <= c < p + s.
Proof.
  intros Hs. exists (upper s c). split.
  - split; [exists (c / s); reflexivity|apply upper_covers; exact Hs].
  - intros p [Hk Hr]. symmetry. apply upper_unique; assumption.
Qed.

(* nway_shape(n): the step the compiler emits, (E - 1) // n + 1 *)
Definition nway_step (E n : Z) : Z := (E - 1) / n + 1.

Theorem nway_step_pos E n : 0 < n -> 0 < E -> 0 < nway_step E n.
Proof. unfold nway_step. intros Hn HE. pose proof (div_ge_iff n (E - 1) 0 Hn). lia. Qed.

Theorem nway_covers_extent E n : 0 < n -> 0 < E -> E <= nway_step E n * n.
Proof. unfold nway_step. intros Hn HE. pose proof (div_lt_iff n (E - 1) ((E - 1) / n + 1) Hn). lia. Qed.

(* n steps cover the extent, so every coordinate below it falls into one of the first n partitions *)
Theorem nway_at_most_n_parts E n c : 0 < n -> 0 < E -> 0 <= c < E -> 0 <= c / nway_step E n < n.
Proof.
  intros Hn HE Hc. pose proof (nway_step_pos E n Hn HE) as Hs. pose proof (nway_covers_extent E n Hn HE).
  pose proof (div_ge_iff _ c 0 Hs). pose proof (div_lt_iff _ c n Hs). lia.
Qed.

(* a stack of levels: a chain of upper coordinates, outermost first.  For any steps
   (dividing or not, larger than the extent or not) every coordinate has exactly one chain. *)
Fixpoint chain (steps : list Z) (c : Z) : list Z :=
  match steps with
  | [] => []
  | s :: steps' => upper s c :: chain steps' c
  end.

Fixpoint chain_ok (steps : list Z) (c : Z) (ps : list Z) : Prop :=
  match steps, ps with
  | [], [] => True
  | s :: steps', p :: ps' => (exists k, p = s * k) /\ p <= c < p + s /\ chain_ok steps' c ps'
  | _, _ => False
  end.

Theorem chain_exactly_one steps c : Forall (fun s => 0 < s) steps ->
  chain_ok steps c (chain steps c) /\ forall ps, chain_ok steps c ps -> ps = chain steps c.
Proof.
  induction 1 as [|s steps Hs Hall IH]; simpl.
  - split; [exact I|]. intros [|p ps]; [reflexivity|intros []].
  - destruct IH as [IH1 IH2]. split.
    + split; [exists (c / s); reflexivity|]. split; [apply upper_covers; exact Hs|exact IH1].
    + intros [|p ps]; [intros []|]. intros [Hk [Hr Hrest]]. f_equal.
      * apply upper_unique; assumption.
      * apply IH2. exact Hrest.
Qed.

(* two tensors split with the same steps put equal coordinates into equal chains (chain depends on
   nothing but the steps and the coordinate): elements that must meet are not separated by partitioning *)
Theorem same_steps_same_chain steps c d : c = d -> chain steps c = chain steps d.
Proof. intros ->. reflexivity. Qed.

(* after a stack of splits an element has the coordinates chain steps c ++ [c], outermost first;
   mergeRanks("absolute") keeps the lowest of them, which is the original coordinate *)
Theorem merge_recovers steps c : last (chain steps c ++ [c]) 0 = c.
Proof. rewrite last_last. reflexivity. Qed.

(* halos (C04): access w = a*q + sum b_i*s_i, output tile [T*j, T*(j+1)) *)
(* one index-math term with coefficient b >= 0 and 0 <= s < S contributes a post-halo b*(S-1) *)
Theorem halo_tile_contains a T j q bs S s :
  0 < a -> 0 < T -> 0 <= bs -> 0 <= s < S ->
  T * j <= q < T * (j + 1) ->
  let w := a * q + bs * s in
  a * T * j <= w < a * T * j + a * T + bs * (S - 1).
Proof. intros. subst w. nia. Qed.

(* with a negative coefficient the halo is on the other side (pre-halo) *)
Theorem halo_tile_contains_neg a T j q bs S s :
  0 < a -> 0 < T -> bs <= 0 -> 0 <= s < S ->
  T * j <= q < T * (j + 1) ->
  let w := a * q + bs * s in
  a * T * j - (- bs) * (S - 1) <= w < a * T * j + a * T.
Proof. intros. subst w. nia. Qed.

Theorem tiles_partition T Q q : 0 < T -> 0 <= q < Q ->
  exists! j, 0 <= j /\ T * j <= q < Z.min (T * (j + 1)) Q.
Proof.
  intros HT Hq. pose proof (upper_covers T q HT) as Hc. unfold upper in Hc. exists (q / T). split.
  - pose proof (div_ge_iff T q 0 HT). lia.
  - intros j [Hj Hr]. pose proof (div_ge_iff T q j HT). pose proof (div_lt_iff T q (j + 1) HT). lia.
Qed.
